(* C01 - A successful sync makes the destination a mirror of the source.  Statements only. *)
From RJ Require Import Base.Prelude Base.OrderedPlan Model.Settings Model.Core Model.Fs Model.Paths Model.Sync Model.SyncTop Model.Roots
  Spec.PlanSpec Spec.Mirror Proofs.ExecProofs Proofs.PathsProofs Proofs.MirrorProofs Proofs.InstanceProofs.
From RJ Require Model.Walker Proofs.WalkBridge Proofs.WalkedSync.
From RJ Require Import Model.SpecRun Proofs.SpecProofs Proofs.LinkTexts.

(* The mirror theorem: for every source tree, destination state, filter verdict, behaviour setting,
   answer sequence, listing order (any valid listing), interleaving and fault plan - if sync() returns
   Ok, nothing was skipped through a behaviour choice, it was no dry run and no effect left the
   destination through a link (C02/C12), then pointwise on every path that takes part on either side
   the destination equals the source (folder / link with the same normalised text / file with the same
   bytes and time, or an untouched file whose time already equalled the source's), entries the source
   lacks are gone, and every other path - in particular everything the filters exclude - is unchanged. *)
Theorem C01_mirror : forall now_z incl normalize chunker,
  (forall d, chunker d <> [] /\ concat (chunker d) = d) ->
  forall dest_fl cfg S D ans bits ls ld ft,
  valid_listing now_z incl normalize S ls -> valid_listing now_z incl normalize (d_fs D) ld ->
  wf_fs S -> src_times_set S -> links_roundtrip normalize dest_fl S -> d_open D = None ->
  let r := sync_one now_z normalize chunker cfg S D ans bits ls ld ft in
  r_ok r = true -> r_skipped r = [] -> r_root_skipped r = false -> cf_dry cfg = false ->
  no_through (d_events (r_dest r)) -> cf_fl cfg = dest_fl ->
  mirror now_z incl normalize (cf_diff cfg) dest_fl S (d_fs D) (d_fs (r_dest r)).
Proof. exact mirror_theorem. Qed.

(* ... instantiated for the executable model (sorted listings, the real chunk ladder, Unix link text). *)
Theorem C01_mirror_executable : forall cfg S D a ans bits ex ft,
  unique_keys S -> wf_fs S -> unique_keys D -> wf_fs D -> src_times_set S -> links_utf8 S ->
  let r := run_top cfg S D a ans bits ex ft in
  r_ok r = true -> r_skipped r = [] -> r_root_skipped r = false -> cf_dry cfg = false ->
  no_through (d_events (r_dest r)) -> cf_fl cfg = Unix ->
  mirror now_far (excl_incl ex) normalize_unix (cf_diff cfg) Unix S D (d_fs (r_dest r)).
Proof. exact run_top_mirror. Qed.

(* ... and with the premise "nothing went through a link" discharged (Proofs/ConfineAll.v): the
   executable model mirrors in EVERY run that returns Ok without skips. *)
Theorem C01_mirror_unconditional : forall cfg S D a ans bits ex ft,
  unique_keys S -> wf_fs S -> unique_keys D -> wf_fs D -> src_times_set S -> links_utf8 S ->
  let r := run_top cfg S D a ans bits ex ft in
  r_ok r = true -> r_skipped r = [] -> r_root_skipped r = false -> cf_dry cfg = false -> cf_fl cfg = Unix ->
  mirror now_far (excl_incl ex) normalize_unix (cf_diff cfg) Unix S D (d_fs (r_dest r)).
Proof. exact run_top_mirror_unconditional. Qed.

(* ... and with BOTH listing premises discharged by the directory walk (C17, Proofs/WalkBridge.v) and the
   premise "nothing went through a link" by C02's theorem for every run: the boss is given on each side
   whatever ANY execution of the N-worker walk over that side's tree delivers before its end-of-list
   marker ([walked]: any number of workers, any queue capacity, any interleaving; such an answer always
   exists) - and a sync that returns Ok without skips mirrors the source. *)
Theorem C01_mirror_walked : forall now_z incl normalize chunker,
  (forall d, chunker d <> [] /\ concat (chunker d) = d) ->
  forall dest_fl cfg S D ans bits ls ld ft,
  wf_fs S -> wf_fs (d_fs D) -> src_times_set S -> links_roundtrip normalize dest_fl S ->
  d_open D = None -> no_through (d_events D) ->
  WalkedSync.walked now_z incl normalize S ls -> WalkedSync.walked now_z incl normalize (d_fs D) ld ->
  let r := sync_one now_z normalize chunker cfg S D ans bits ls ld ft in
  r_ok r = true -> r_skipped r = [] -> r_root_skipped r = false -> cf_dry cfg = false -> cf_fl cfg = dest_fl ->
  mirror now_z incl normalize (cf_diff cfg) dest_fl S (d_fs D) (d_fs (r_dest r)).
Proof. exact WalkedSync.walked_sync_mirrors. Qed.
Theorem C01_walked_listing_exists : forall now_z incl normalize f, exists l, WalkedSync.walked now_z incl normalize f l.
Proof. exact WalkedSync.walked_exists. Qed.

(* SPEC FILES WITH SEVERAL SYNCS (Model/SpecRun.v).  Every sync that was started never went through a destination
   link, and if it returned Ok without skips its destination then mirrored its source - the two trees as they
   were when it began, i.e. including everything earlier syncs of the spec wrote (A -> B, then B -> C) ... *)
Theorem C01_spec_each_sync_mirrors : forall jobs st, store_ok st ->
  Forall (fun t =>
    let j := t_job t in let S := sget (t_store t) (j_src j) in let D := sget (t_store t) (j_dst j) in
    no_through (d_events (r_dest (t_res t))) /\
    (src_times_set S -> links_utf8 S ->
     r_ok (t_res t) = true -> r_skipped (t_res t) = [] -> r_root_skipped (t_res t) = false ->
     cf_dry (j_cfg j) = false -> cf_fl (j_cfg j) = Unix ->
     mirror now_far (excl_incl (j_ex j)) normalize_unix (cf_diff (j_cfg j)) Unix S D (d_fs (r_dest (t_res t)))))
    (spec_trace jobs st).
Proof. exact spec_each_sync. Qed.
(* ... what it left is still there at the end of the run unless a later sync of the spec wrote to that root ... *)
Theorem C01_spec_final_trees : forall jobs st pre t post,
  spec_trace jobs st = pre ++ t :: post ->
  j_src (t_job t) <> j_dst (t_job t) ->
  (forall t', In t' post -> j_dst (t_job t') <> j_dst (t_job t) /\ j_dst (t_job t') <> j_src (t_job t)) ->
  sget (sp_store (run_spec jobs st)) (j_dst (t_job t)) = d_fs (r_dest (t_res t)) /\
  sget (sp_store (run_spec jobs st)) (j_src (t_job t)) = sget (t_store t) (j_src (t_job t)).
Proof. exact spec_final_trees. Qed.
(* ... every tree stays a well-formed tree whatever happens, and a mirrored destination has all its times set, so
   it is fit to be the source of a later sync. *)
Theorem C01_spec_stores_well_formed : forall jobs st, store_ok st ->
  Forall (fun t => store_ok (t_store t)) (spec_trace jobs st) /\ store_ok (sp_store (run_spec jobs st)).
Proof. exact spec_stores_ok. Qed.
Theorem C01_mirror_keeps_times_set : forall incl diff S D D',
  mirror now_far incl normalize_unix diff Unix S D D' -> src_times_set S -> src_times_set D -> src_times_set D'.
Proof. exact mirror_keeps_times_set. Qed.

(* CLOSED for chains: if all trees are good at the start (well-formed, all times set, all link texts well-formed UTF-8)
   and no sync of the spec skips anything, then every sync that returns Ok mirrors its source as it was when that sync
   began - however many earlier syncs of the spec had written it - and every store along the way is good.  Nothing is
   assumed about the trees in the middle of the run: a mirrored destination keeps all times set
   (C01_mirror_keeps_times_set) and every link text a run writes is well formed again (C01_run_keeps_links_utf8,
   from Proofs/Utf8Join.v: well-formed UTF-8 is closed under concatenation). *)
Theorem C01_spec_chain_mirrors : forall jobs st, store_good st ->
  Forall clean_run (spec_trace jobs st) ->
  Forall (fun t =>
    let j := t_job t in let S := sget (t_store t) (j_src j) in let D := sget (t_store t) (j_dst j) in
    store_good (t_store t) /\
    (r_ok (t_res t) = true ->
     mirror now_far (excl_incl (j_ex j)) normalize_unix (cf_diff (j_cfg j)) Unix S D (d_fs (r_dest (t_res t)))))
    (spec_trace jobs st).
Proof. exact spec_chain_mirrors. Qed.
Theorem C01_run_keeps_links_utf8 : forall cfg S D a ans bits ex ft,
  unique_keys S -> wf_fs S -> unique_keys D -> wf_fs D -> links_utf8 S -> links_utf8 D -> cf_fl cfg = Unix ->
  let ls := list_fs now_far (excl_incl ex) normalize_unix S in
  let ld := list_fs now_far (excl_incl ex) normalize_unix D in
  (forall s, In s (Proofs.CrashMain.sync_kill_states now_far normalize_unix chunk_real cfg S (world D a []) ans bits ls ld ft) -> links_utf8 (d_fs s)) /\
  links_utf8 (d_fs (r_dest (run_top cfg S D a ans bits ex ft))).
Proof. exact run_top_keeps_links_utf8. Qed.

(* Link text: what is written on the destination has the same components as the source text for a
   relative target and is the text itself otherwise; and it normalises to the same target again. *)
Theorem C01_link_text : forall t, lossy t = t -> same_path_text t (denormalize Unix (normalize_unix t)) = true.
Proof. exact link_text_preserved. Qed.
Theorem C01_utf8_text_is_in_domain : forall t, utf8_valid t = true -> lossy t = t.
Proof. exact lossy_valid. Qed.

(* The effective destination follows the documented trailing-slash table, cell by cell. *)
Theorem C01_table : forall src ss dest ds, root_decision src ss dest ds = notes_table src ss dest ds.
Proof. intros [] [] [[]|] []; reflexivity. Qed.

(* Non-vacuity: a run with a kind conflict, an extra entry, an older file, an excluded destination
   entry and a symlink satisfies every premise and produces a changed, mirrored destination. *)
Definition ex_name (c : ascii) : str := [c].
Definition ex_S : fs :=
  [ ([], NFolder); ([ex_name "a"], NFile (TSet 10) ["x"%char]); ([ex_name "d"], NFolder);
    ([ex_name "d"; ex_name "f"], NFile (TSet 7) []); ([ex_name "l"], NLink ["a"%char] SKFile) ].
Definition ex_D : fs :=
  [ ([], NFolder); ([ex_name "a"], NFile (TSet 5) ["o"%char; "l"%char]); ([ex_name "d"], NFile (TSet 1) []);
    ([ex_name "x"], NFile (TSet 2) []); ([ex_name "e"], NFile (TSet 3) ["k"%char]) ].
Definition ex_cfg := mkCfg false Unix (mkB BAct BAct BSkip BAct) BAct false.
Example C01_example :
  let r := run_top ex_cfg ex_S ex_D AncOk [] [] [[ex_name "e"]] no_faults in
  r_ok r = true /\ r_skipped r = [] /\ r_root_skipped r = false /\ d_events (r_dest r) = [] /\
  fget (d_fs (r_dest r)) [ex_name "d"; ex_name "f"] = Some (NFile (TSet 7) []) /\
  fget (d_fs (r_dest r)) [ex_name "x"] = None /\
  fget (d_fs (r_dest r)) [ex_name "e"] = Some (NFile (TSet 3) ["k"%char]) /\
  fget (d_fs (r_dest r)) [ex_name "a"] = Some (NFile (TSet 10) ["x"%char]).
Proof. vm_compute. repeat split; reflexivity. Qed.

Print Assumptions C01_mirror.
Print Assumptions C01_mirror_unconditional.
Print Assumptions C01_mirror_executable.
Print Assumptions C01_table.
Print Assumptions C01_mirror_walked.
Print Assumptions C01_walked_listing_exists.
Print Assumptions C01_spec_each_sync_mirrors.
Print Assumptions C01_spec_final_trees.
Print Assumptions C01_spec_stores_well_formed.
Print Assumptions C01_mirror_keeps_times_set.
Print Assumptions C01_spec_chain_mirrors.
Print Assumptions C01_run_keeps_links_utf8.

(* F14: the name under which a file or symlink source is placed inside a trailing-slash destination (Model/RootName.v) *)
From RJ Require Import Model.RootName Proofs.RootNameProofs.
From Coq Require Import String.
Theorem C01_file_lands_under_its_own_name : forall src dest, exists name, inside_root false src dest = dest ++ name /\ name = posix_basename src /\ Forall (fun c => c <> "/"%char) name.
Proof. exact C01_inside_root_is_child. Qed.
Print Assumptions C01_file_lands_under_its_own_name.
