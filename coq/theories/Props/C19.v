(* C19 - A deployed binary is a faithful, runnable, self-propagating copy.
   Statements only; the proofs are in Proofs/LEProofs.v, ExeNoPanic.v,
   ElfProofs.v, PeProofs.v.  Model: Model/LE.v, Elf.v, Pe.v (exe_utils.rs on byte lists). *)
From RJ Require Import Base.Prelude Model.LE Model.Elf Model.Pe Model.ExeWitness Model.DeployFile Gen.Facts.
From RJ Require Import Proofs.LEProofs Proofs.ExeLemmas Proofs.ExeNoPanic Proofs.ExeWitnessProofs Proofs.ElfProofs Proofs.PeProofs Proofs.ExeExamples Proofs.DeployFileProofs.
From Coq Require Import String.
Local Open Scope N_scope.

(* A malformed executable is rejected with an error rather than a crash (fixed code, any build mode):
   for every byte string, section name and payload each of the four functions yields Ok or Err. *)
Theorem C19_no_panic : forall (m : mode) (bytes name payload : list byte) (site : str),
  add_elf m bytes name payload <> Panic site /\ extract_elf m bytes name <> Panic site /\
  add_pe m bytes name payload <> Panic site /\ extract_pe m bytes name <> Panic site.
Proof. exact no_panic_all. Qed.

Theorem C19_total : forall (m : mode) (bytes name payload : list byte),
  ((exists r, add_elf m bytes name payload = Ok r) \/ (exists e, add_elf m bytes name payload = Err e)) /\
  ((exists r, extract_elf m bytes name = Ok r) \/ (exists e, extract_elf m bytes name = Err e)) /\
  ((exists r, add_pe m bytes name payload = Ok r) \/ (exists e, add_pe m bytes name payload = Err e)) /\
  ((exists r, extract_pe m bytes name = Ok r) \/ (exists e, extract_pe m bytes name = Err e)).
Proof. exact total_all. Qed.

(* The same statement is FALSE of the code before the fix (finding F9).  Witnesses (corpus/C19/F9-*.json holds
   the same bytes; every run replays them on the real code): in both build modes ... *)
Theorem C19_no_panic_refuted : forall m : mode,
  add_pe0 m w_pe_fa0 w_name w_abc = Panic (slit "div") /\            (* FileAlignment = 0 *)
  add_pe0 m w_pe_trunc w_name w_abc = Panic (slit "index") /\        (* truncated after the section headers *)
  extract_pe0 m w_pe_split w_name_s0 = Panic (slit "split") /\       (* PointerToRawData beyond the file *)
  add_elf0 m w_elf_names_out w_name w_abc = Panic (slit "index") /\  (* names section outside the file *)
  extract_elf0 m w_elf_split w_name_text = Panic (slit "split").     (* sh_offset beyond the file *)
Proof. exact refuted_both_modes. Qed.

(* ... and depending on the build mode: overflow checks panic in debug builds, release builds wrap
   (and then either succeed with a nonsensical file or panic later). *)
Theorem C19_no_panic_refuted_release :
  add_pe0 Debug w_pe_nosec w_name w_abc = Panic (slit "sub") /\ is_ok (add_pe0 Release w_pe_nosec w_name w_abc) = true /\
  add_pe0 Debug w_pe_empty w_name [] = Panic (slit "sub") /\ is_ok (add_pe0 Release w_pe_empty w_name []) = true /\
  add_pe0 Debug w_pe_ffff w_name w_abc = Panic (slit "add") /\
  extract_elf0 Debug w_elf_shoff_max w_name_text = Panic (slit "add") /\ extract_elf0 Release w_elf_shoff_max w_name_text = Err eother /\
  add_elf0 Debug w_elf_shoff_wrap w_name w_abc = Panic (slit "add") /\ add_elf0 Release w_elf_shoff_wrap w_name w_abc = Panic (slit "split").
Proof. exact refuted_by_mode. Qed.

Theorem C19_le_roundtrip : forall (sz : nat) (v : N) (bs : list byte),
  decode_le (encode_le sz v) = v mod 256 ^ N.of_nat sz /\ encode_le (List.length bs) (decode_le bs) = bs.
Proof. exact le_roundtrip. Qed.

(* a written field is read back; other fields are untouched; the length does not change *)
Theorem C19_field_roundtrip : forall m sz bs off v bs',
  write_field true m sz bs off v = Ok bs' ->
  read_field true m sz bs' off = Ok (v mod 256 ^ N.of_nat sz) /\ lenN bs' = lenN bs.
Proof. exact field_roundtrip. Qed.

Theorem C19_field_frame : forall m sz bs off v bs' sz2 off2,
  write_field true m sz bs off v = Ok bs' ->
  off2 + N.of_nat sz2 <= off \/ off + N.of_nat sz <= off2 ->
  read_field true m sz2 bs' off2 = read_field true m sz2 bs off2.
Proof. exact field_frame. Qed.

(* The section name used by the running code (Gen/Facts.v) satisfies the name premises below. *)
Theorem C19_section_name_is_code :
  lenN impl_section_name <= 8 /\ ~ In zero impl_section_name /\ impl_section_name <> [].
Proof. exact section_name_ok. Qed.

(* ELF64.  [wf_elf e] (Proofs/ElfProofs.v): the name table starts after the 64-byte ELF header, is not
   empty, ends with NUL, and every section's sh_name points into it.  Everything else a layout must
   satisfy is implied by [add_elf .. = Ok _] (magic / 64 bit / little endian / v1, section header
   table at the end of the file: e_shoff + e_shnum * e_shentsize = |e|, e_shentsize >= 40,
   e_shstrndx < e_shnum, name table before the section header table, sizes representable).
   [has_section e name]: some section's name, read the way extract_section_from_elf reads it (at most
   32 bytes), equals [name] - extraction returns the FIRST match, so the premise matters.
   [name_ok]: no NUL inside, at most 32 bytes (the read_string cap).  The size premise says the file
   is far smaller than 2^64 bytes (true of every Vec<u8>; list lengths are unbounded in the model).
   Holds for every payload (any length, any content) and every layout: any number of sections, any
   position of the names section, any e_shentsize >= 40, any gaps. *)
Theorem C19_elf_roundtrip : forall (m m' : mode) (e name p e' : list byte),
  wf_elf e -> ~ has_section e name -> name_ok name ->
  lenN e + lenN name + lenN p + 65537 < 18446744073709551616 ->
  add_elf m e name p = Ok e' -> extract_elf m' e' name = Ok p.
Proof. exact elf_roundtrip. Qed.

(* What is preserved (full statement): bytes of e' below the insertion point (the end of the name
   table) equal e's except e_shoff (0x28) and e_shnum (0x3C), which take their new values; the name and a
   NUL are inserted there; every byte from the insertion point up to the old section header table is
   found |name|+1 bytes later - so every old section's contents are found at its unchanged offset
   (sections before the insertion point) or at its offset + |name|+1 (sections behind it); the
   payload follows, then the new section header table, in which every old section header is kept byte
   for byte except sh_offset of the sections listed after the names section (+ |name|+1) and sh_size of
   the names section (+ |name|+1).  (Whether "listed after the names section" coincides with "lies
   behind the insertion point in the file" is a property of the input layout, true of linker output
   and checked on the real binary; the theorem states what the code does for every layout.)
   Not claimed: program headers (the loader's view) - they are untouched iff they lie below the
   insertion point, which the check verifies on the real binary before running it. *)
Theorem C19_elf_preserves : forall (m : mode) (e name p e' : list byte),
  wf_elf e ->
  lenN e + lenN name + lenN p + 65537 < 18446744073709551616 ->
  add_elf m e name p = Ok e' ->
  let shoff := e_shoff e in let se := e_shentsize e in let shnum := e_shnum e in let sx := e_shstrndx e in
  let pos := names_off e + names_size e in let k := lenN name + 1 in
  lenN e = shoff + shnum * se /\ pos <= shoff /\ sx < shnum /\ 40 <= se /\
  (forall o n, o + n <= pos -> (o + n <= 40 \/ 48 <= o) -> (o + n <= 60 \/ 62 <= o) -> subN e' o n = subN e o n) /\
  fieldN e' 40 8 = shoff + k + lenN p /\ fieldN e' 60 2 = shnum + 1 /\
  subN e' pos k = name ++ [zero] /\
  (forall o n, pos <= o -> o + n <= shoff -> subN e' (o + k) n = subN e o n) /\
  subN e' (shoff + k) (lenN p) = p /\
  lenN e' = shoff + k + lenN p + (shnum + 1) * se /\
  (forall o n, (forall j, sx < j < shnum -> o + n <= j * se + 24 \/ j * se + 32 <= o) ->
               (o + n <= sx * se + 32 \/ sx * se + 40 <= o) -> o + n <= shnum * se ->
               subN e' (shoff + k + lenN p + o) n = subN e (shoff + o) n) /\
  (forall j, sx < j < shnum -> fieldN e' (shoff + k + lenN p + (j * se + 24)) 8 = sh_field e j 24 8 + k) /\
  fieldN e' (shoff + k + lenN p + (sx * se + 32)) 8 = names_size e + k.
Proof. exact elf_preserves. Qed.

(* PE.  [wf_pe e]: e_lfanew >= 64 (the PE header does not overlap the DOS header's e_lfanew field) and
   SizeOfOptionalHeader >= 64 (SizeOfImage / SizeOfHeaders lie inside the optional header, before the
   section headers).  Everything else is implied by [add_pe .. = Ok _] (signature, at least one
   section, non-zero alignments, room for the new header, sizes representable in 32 bits).
   [pe_has_section]: some section header's 8-byte name field reads as [name] (first match wins).
   One theorem covers both layouts - a gap of >= 40 bytes after the section headers, or the contents
   moved up by align(40, FileAlignment) - and every payload size, including the empty payload. *)
Theorem C19_pe_roundtrip : forall (m m' : mode) (e name p e' : list byte),
  wf_pe e -> ~ pe_has_section e name -> pe_name_ok name ->
  add_pe m e name p = Ok e' ->
  exists pad, extract_pe m' e' name = Ok (p ++ zerosN pad) /\ pad < pe_fa e.
Proof. exact pe_roundtrip. Qed.

(* Every old section header still points at the same bytes: there is a [shift] (0 in the gap layout, a
   multiple of FileAlignment >= 40 otherwise) such that every PointerToRawData grew by [shift], every
   other byte of every old section header is unchanged, every byte of the file from the end of the
   section headers on (from 40 bytes later in the gap layout, where the new header takes the place of
   padding) is found [shift] bytes later, and below the section headers only NumberOfSections,
   SizeOfImage and SizeOfHeaders change.  Hence a section whose raw data lies behind the headers (as
   in every valid PE: PointerToRawData >= SizeOfHeaders) is found unaltered at its new
   PointerToRawData.  Not claimed: the Windows loader's view (SizeOfImage / VirtualAddress of the new
   section are computed by the model exactly as by the code, but no loader model exists here). *)
Theorem C19_pe_sections : forall (m : mode) (e name p e' : list byte),
  wf_pe e -> add_pe m e name p = Ok e' ->
  let fh := pe_fh e in let oh := pe_oh e in let sh := pe_sh e in let n := pe_n e in let hend := pe_hend e in
  exists shift, (shift = 0 \/ 40 <= shift) /\
  (forall j, j < n -> fieldN e' (sh + j * 40 + 20) 4 = pe_ptr e j + shift) /\
  (forall j x k, j < n -> x + k <= 20 \/ (24 <= x /\ x + k <= 40) -> subN e' (sh + j * 40 + x) k = subN e (sh + j * 40 + x) k) /\
  (forall o k, hend + (if shift =? 0 then 40 else 0) <= o -> o + k <= lenN e -> subN e' (o + shift) k = subN e o k) /\
  (forall o k, o + k <= sh -> (o + k <= fh + 2 \/ fh + 4 <= o) -> (o + k <= oh + 56 \/ oh + 64 <= o) -> subN e' o k = subN e o k) /\
  fieldN e' (fh + 2) 2 = n + 1.
Proof. exact pe_sections. Qed.

(* Non-vacuity: the premises hold for concrete small files, both PE layouts occur, and the
   functions really produce / read back something. *)
Example C19_example_elf :
  wf_elf w_elf_ok /\ ~ has_section w_elf_ok w_name /\ name_ok w_name /\
  exists e', add_elf Debug w_elf_ok w_name w_abc = Ok e' /\ extract_elf Release e' w_name = Ok w_abc /\
             lenN e' = lenN w_elf_ok + 9 + 3 + 64.
Proof. exact example_elf. Qed.

Example C19_example_pe :
  wf_pe w_pe_ok /\ ~ pe_has_section w_pe_ok w_name /\ wf_pe w_pe16_ok /\ ~ pe_has_section w_pe16_ok w_name /\
  (exists e', add_pe Debug w_pe_ok w_name w_abc = Ok e' /\ lenN e' = lenN w_pe_ok + 512 /\
              extract_pe Debug e' w_name = Ok (w_abc ++ zerosN 509)) /\
  (exists e', add_pe Debug w_pe16_ok w_name [] = Ok e' /\ lenN e' = lenN w_pe16_ok + 48 /\
              extract_pe Debug e' w_name = Ok []).
Proof. exact example_pe. Qed.

(* "The binary that deployment places on a remote starts": the permission-bit side of it
   (Model/DeployFile.v).  After the steps of a deployment to a unix remote - upload with scp, chmod +x,
   launch - the program file has the owner's x bit and the launch starts it: for both ways of staging
   the binary (a copy of the running program / a generated big binary written as a new 0o666 file),
   every mode of the running program, every umask of the boss, a remote file that is new or replaces
   an existing one of any mode, as owner or as root; the only premise is that the remote umask does
   not mask the owner's x bit.  That the steps are those of the code, that the staged file has the
   modelled mode and that scp/chmod/exec behave as modelled is the differential run against the
   fake remote (tools/deploy_lib.py), not a theorem. *)
Theorem C19_deployed_file_executable :
  forall (native root : bool) (self_mode bumask rumask : N) (existing : option N),
  N.testbit rumask 6 = false ->
  deploy_file false native root self_mode bumask rumask existing =
    mkWorld (Some (chmod_plus_x (scp_mode existing (staged_mode (choose_staging native) self_mode bumask) rumask) rumask))
            (Some true).
Proof. exact deployed_file_starts. Qed.

Theorem C19_deploy_steps : deploy_steps false = [SScp; SChmod; SLaunch] /\ deploy_steps true = [SScp; SLaunch].
Proof. exact deploy_steps_shape. Qed.

(* The chmod step is what makes it true: without it a generated binary uploaded as a new file never
   starts (whatever the umasks), while a copy of the running program does - which is why a
   same-platform deployment cannot show a missing chmod. *)
Theorem C19_chmod_needed : forall (root : bool) (self_mode bumask rumask : N),
  w_started (run_steps false root (staged_mode (choose_staging false) self_mode bumask) rumask
                       (mkWorld None None) [SScp; SLaunch]) = Some false.
Proof. exact chmod_needed. Qed.

Theorem C19_copyself_hides_chmod : forall (root : bool) (self_mode bumask rumask : N),
  N.testbit self_mode 6 = true -> N.testbit rumask 6 = false ->
  w_started (run_steps false root (staged_mode (choose_staging true) self_mode bumask) rumask
                       (mkWorld None None) [SScp; SLaunch]) = Some true.
Proof. exact copyself_hides_chmod. Qed.

Example C19_example_deploy :
  deploy_trace false false true 493 18 18 None =
    (420, [(SScp, mkWorld (Some 420) None); (SChmod, mkWorld (Some 493) None); (SLaunch, mkWorld (Some 493) (Some true))]) /\
  deploy_trace false true true 493 18 18 None =
    (493, [(SScp, mkWorld (Some 493) None); (SChmod, mkWorld (Some 493) None); (SLaunch, mkWorld (Some 493) (Some true))]) /\
  deploy_trace true false true 493 18 18 None =
    (420, [(SScp, mkWorld (Some 420) None); (SLaunch, mkWorld (Some 420) (Some true))]).
Proof. exact deploy_example. Qed.

Print Assumptions C19_no_panic.
Print Assumptions C19_elf_roundtrip.
Print Assumptions C19_pe_roundtrip.
Print Assumptions C19_pe_sections.
Print Assumptions C19_no_panic_refuted.
Print Assumptions C19_deployed_file_executable.
Print Assumptions C19_chmod_needed.
