(* C06 - Filters select by whole-path match, last match wins, same on both sides.
   Statements and their assumption audit; the proofs are in Proofs/RegexProofs.v, RegexParseProofs.v, FiltersProofs.v.
   Domain of the theorems: filter lists whose patterns are in the subset of regex syntax accepted by
   Model/RegexParse.v, over 7-bit text (see design.d/C06.md for the subset and what is outside). *)
From RJ Require Import Base.Prelude Model.Regex Model.RegexParse Model.Filters.
From RJ Require Import Proofs.RegexProofs Proofs.RegexParseProofs Proofs.FiltersProofs Gen.Facts_filters.
From Coq Require Import String.
Local Open Scope char_scope.

(* The wrapping of the model is the wrapping of the running code (Gen/Facts_filters.v is regenerated
   from compile_filters on every run: the text handed to the regex crate for the filter "+X"). *)
Theorem C06_wrap_is_code : wrap ["X"] = impl_wrap_probe.
Proof. reflexivity. Qed.

(* Text-level anchoring is AST-level anchoring: whatever the pattern (top-level alternation,
   groups, flags, classes ...), if it parses to r then "^(?:" ++ pat ++ ")$" parses to ^(r)$. *)
Theorem anchor_wrap : forall pat r,
  parse pat = Some r -> parse (wrap pat) = Some (cats [Bol; Group r; Eol]).
Proof. exact RegexParseProofs.anchor_wrap. Qed.

(* A search (what RegexSet::matches does) for ^(r)$ is a match of r against the entire text. *)
Theorem search_anchored_is_fullmatch : forall r s, search (cats [Bol; Group r; Eol]) s = fullmatch r s.
Proof. exact RegexProofs.search_anchored_is_fullmatch. Qed.

(* The executable matcher is the relational semantics (the fuel used for * + {m,} is sufficient). *)
Theorem C06_matcher_correct : forall s r i j, In j (ends r s i) <-> mt s r i j.
Proof. exact ends_correct. Qed.
Theorem C06_fullmatch_is_whole : forall r s, fullmatch r s = true <-> matches_whole r s.
Proof. exact fullmatch_correct. Qed.

Theorem C06_search_is_somewhere : forall r s, search r s = true <-> matches_somewhere r s.
Proof. exact search_correct. Qed.

(* What the code does (wrap each text, compile, ship, compile again, search, last match wins, default
   opposite of the first kind, root included) is the documented rule evaluated with a whole-path
   match of each pattern's own AST. *)
Theorem C06_verdict : forall fs asts p,
  map own_ast fs = map Some asts -> model_verdict fs p = Ok (spec_verdict asts p).
Proof. exact verdict_is_rule. Qed.

(* ... and that executable rule is the property text. *)
Theorem C06_rule : forall asts p sg, p <> [] -> (spec_verdict asts p = sg <-> decides asts p sg).
Proof. exact rule_is_text. Qed.
Theorem C06_takes_part : forall asts p, takes_part asts p <-> spec_verdict asts p = Inc.
Proof. exact takes_part_iff. Qed.

(* Same on both sides: the set the boss validated always deserialises on a doer, never makes
   apply_filters index out of range, and gives the boss's verdict - a function of (filters, path). *)
Theorem C06_both_sides : forall fs fl, compile_filters fs = Ok fl ->
  List.length (fl_kinds fl) = List.length (fl_patterns fl) /\
  forall p, exists v, doer_verdict fl p = Ok v /\ boss_verdict fs p = Ok v.
Proof. exact shipped_set_works. Qed.

(* The walk lists exactly the entries that survive together with every ancestor folder ... *)
Theorem C06_listed_iff : forall inc t q,
  In q (walk inc [] t) <-> exists anc, In (q, anc) (entries [] [] t) /\ inc q = true /\ forallb inc anc = true.
Proof. exact listed_iff. Qed.
Theorem C06_walk_is_filter : forall inc t,
  walk inc [] t = map fst (filter (survives inc) (entries [] [] t)).
Proof. intros inc t. exact (walk_spec inc t [] [] eq_refl). Qed.
(* ... so an excluded folder hides everything beneath it ... *)
Theorem C06_hidden : forall inc t q, In q (walk inc [] t) ->
  forall anc d, In (q, anc) (entries [] [] t) -> In d anc ->
  (forall anc', In (q, anc') (entries [] [] t) -> anc' = anc) -> inc d = true.
Proof. exact hidden_beneath_excluded. Qed.
(* ... and source and destination list an entry they both have under the same conditions. *)
Theorem C06_same_on_both_trees : forall inc S D q anc,
  (forall a, In (q, a) (entries [] [] S) -> a = anc) -> (forall a, In (q, a) (entries [] [] D) -> a = anc) ->
  In (q, anc) (entries [] [] S) -> In (q, anc) (entries [] [] D) ->
  (In q (walk inc [] S) <-> In q (walk inc [] D)).
Proof. exact same_on_both_trees. Qed.

(* The defect F1 (the code before the fix): with "^" ++ pat ++ "$" a top-level alternation captures the anchors. *)
Theorem C06_old_wrap_escapes :
  parse (wrap_old ["a"; "|"; "b"]) = Some (Alt (cats [Bol; lit false "a"]) (cats [lit false "b"; Eol])).
Proof. exact old_wrap_escapes. Qed.

Theorem C06_old_wrap_refuted :
  let fs := [["-"; "a"; "|"; "b"]] in let p := ["a"; "b"] in
  old_verdict fs p = Ok Exc /\ model_verdict fs p = Ok Inc /\
  exists asts, map own_ast fs = map Some asts /\ spec_verdict asts p = Inc.
Proof. exact old_wrap_refuted. Qed.

(* Non-vacuity: the F1 witness. "-build|dist": builder.txt takes part, build and dist do not. *)
Definition s (x : String.string) : str := String.list_ascii_of_string x.
Arguments s x%string.
Example C06_example :
  let fs := [s "-build|dist"; s "+dist/keep\.[a-c]{2,}"; s "-(?i)[^/]*\.TMP"] in
  map (model_verdict fs) [s "build"; s "builder.txt"; s "dist"; s "dist/keep.abc"; s "dist/keep.ad"; s "x.tmp"; []]
  = map Ok [Exc; Inc; Exc; Inc; Inc; Exc; Inc]
  /\ forallb (fun f => match own_ast f with Some _ => true | None => false end) fs = true.
Proof. split; vm_compute; reflexivity. Qed.

Print Assumptions anchor_wrap.
Print Assumptions C06_verdict.
Print Assumptions C06_matcher_correct.
Print Assumptions C06_listed_iff.
