(* C17 - The directory walk lists every included entry exactly once and always finishes.

   "Listing a folder reports every entry beneath it that the filters keep exactly once, each folder
    before anything inside it, never descends into an excluded folder or through a symlink, and ends
    with an end-of-list marker - for every tree shape and any number of walker threads.  A read error
    on any directory surfaces as an error instead of a silently shorter listing."

   The system (Model/Walker.v): N workers (worker_main), the unbounded FIFO job queue, the counter
   num_unfinished_jobs, the bounded FIFO result queue of capacity C, the consumer (handle_get_entries).
   [reach N C root s]: s is reachable from the initial state by ANY interleaving of atomic actions.
   Every theorem is for all trees, all interleavings, every number of workers N and every capacity C; N >= 1 or C >= 1
   is a premise only where a theorem needs it.

   Statements and their assumption audit; the proofs are in Proofs/WalkerProofs.v, WalkerJudge.v, WalkBridge.v. *)
From RJ Require Import Base.Prelude Model.Walker Proofs.WalkerProofs Proofs.WalkerJudge.
From Coq Require Import Permutation.
From RJ Require Model.Core Model.Fs Spec.PlanSpec Spec.Mirror Proofs.WalkBridge.

(* The reference walk is what remains of everything the workers send once the errors are removed. *)
Theorem C17_reference_walk : forall t p, map REntry (walk_spec p t) = entries_of (walk_all p t).
Proof. exact walk_spec_entries. Qed.

(* Exactly once: when the consumer sees the end of the list it has received a permutation of the
   reference walk (each included entry once, nothing else) - and the tree had no read error. *)
Theorem C17_exactly_once : forall N C, N >= 1 -> forall root s,
  reach N C root s -> cons s = CEos ->
  has_error root = false /\ Permutation (recvd s) (walk_spec [] root).
Proof. exact eos_exactly_once. Qed.

(* Each folder before anything inside it - in every reachable state, for what has been received so far. *)
Theorem C17_parent_first : forall N C root s,
  reach N C root s -> ancestors_first (recvd s).
Proof. exact reach_ancestors_first. Qed.

(* Never into an excluded folder or through a link: every job ever queued or held by a worker, every
   result in the queue and every received entry lies in a directory reached from the root through
   readable, real (a link is a leaf), non-excluded directories only ... *)
Theorem C17_no_descent : forall N C root s, reach N C root s ->
  Forall (jok root) (jobs (gl s)) /\ Forall (wok root) (ws s) /\
  Forall (rok root) (rq (gl s)) /\ Forall (included root) (recvd s).
Proof. exact reach_sinv. Qed.
(* ... and so does every ancestor of such a directory. *)
Theorem C17_no_descent_ancestors : forall root p t, dir_at root p t -> forall q r, p = q ++ r -> r <> [] ->
  exists ch, dir_at root q (Dir true ch).
Proof. exact dir_at_prefix. Qed.

(* Read with unique sibling names (as in a real directory): whatever is found at a non-empty prefix
   of the path of a job - or of the directory containing a result - is a real directory that the
   filters keep: not excluded, not a link. *)
Theorem C17_no_descent_unique : forall root p t, unique_names root -> dir_at root p t ->
  forall q r c, p = q ++ r -> q <> [] -> at_path root q c -> fst c = false /\ is_dir (snd c) = true.
Proof. exact no_descent_unique. Qed.

(* Always finishes: the measure [mu] decreases on every step from every state, so every execution
   is finite under every scheduler (no fairness assumption) ... *)
Theorem C17_step_decreases : forall N C s s', step N C s s' -> mu N s' < mu N s.
Proof. exact step_decreases. Qed.
Theorem C17_terminates : forall N C s, Acc (fun a b => step N C b a) s.
Proof. exact terminates. Qed.
(* ... and cannot stop early: a reachable state either has an enabled step or is final.  In particular
   a full result queue never deadlocks against the consumer, and the counter reaches 0 exactly when
   all jobs are finished (so the Done broadcast happens, and happens once). *)
Theorem C17_no_stuck : forall N C, N >= 1 -> C >= 1 -> forall root s,
  reach N C root s -> final s \/ exists s', step N C s s'.
Proof. exact no_stuck. Qed.

(* End of stream: where an execution stops, either the tree has no read error, every worker has
   exited, the consumer has seen the disconnect (= sends EndOfEntries) after the complete listing;
   or the tree has a read error and the consumer has failed. *)
Theorem C17_end_of_stream : forall N C, N >= 1 -> C >= 1 -> forall root s,
  reach N C root s -> (forall s', ~ step N C s s') ->
  (has_error root = false /\ cons s = CEos /\ Permutation (recvd s) (walk_spec [] root) /\ ws s = repeat WExit N) \/
  (has_error root = true /\ cons s = CDropped /\ Forall (blocked (gl s)) (ws s)).
Proof. exact stuck_outcome. Qed.

(* Non-vacuity of the above, for every tree: an execution that runs until nothing is enabled exists. *)
Theorem C17_some_run_finishes : forall N C, N >= 1 -> C >= 1 -> forall root,
  exists s, reach N C root s /\ final s /\ (forall s', ~ step N C s s').
Proof. intros N C HN HC root. exact (run_to_final N C HN HC root _ (r_init N C root)). Qed.

(* A read error surfaces: if a directory that has to be read cannot be read (or an entry cannot be
   examined), the consumer never reports end-of-list; without one it never fails. *)
Theorem C17_error_surfaces : forall N C, N >= 1 -> forall root s,
  reach N C root s -> has_error root = true -> cons s <> CEos.
Proof. exact error_never_eos. Qed.
Theorem C17_no_spurious_error : forall N C, N >= 1 -> forall root s,
  reach N C root s -> has_error root = false -> cons s = CRun \/ cons s = CEos.
Proof. exact noerror_never_fails. Qed.

(* The counter invariant itself, and: no worker ever panics (assert_eq!(job_sender.len(), 0) holds,
   fetch_sub never wraps). *)
Theorem C17_counter_invariant : forall N C root s, reach N C root s ->
  cnt (gl s) = sumf jdir (jobs (gl s)) + sumf inprog (ws s) + leaked (gl s).
Proof. intros N C root s H. exact (proj1 (I_C _ _ _ (reach_inv _ _ _ _ H))). Qed.
Theorem C17_no_panic : forall N C root s, reach N C root s -> forall w, In w (ws s) -> w <> WBad.
Proof. exact no_panic. Qed.

(* The extracted judge used by the tie accepts a complete listing iff it is what the theorems above
   promise, and accepts every complete listing the model can produce. *)
Theorem C17_admits_spec : forall t l, admits t true l = true <->
  has_error t = false /\ Permutation l (walk_spec [] t) /\ parent_first l.
Proof. exact admits_complete_spec. Qed.
Theorem C17_model_listing_admitted : forall N C, N >= 1 -> forall root s,
  reach N C root s -> cons s = CEos -> admits root true (recvd s) = true.
Proof. exact model_listing_admitted. Qed.

(* ... and also every failed listing: the tree has an error and what was received before the failure
   is a parents-first part of the reference walk (never something that is not an included entry). *)
Theorem C17_model_failed_listing_admitted : forall N C, N >= 1 -> forall root s,
  reach N C root s -> cons s = CErr \/ cons s = CDropped -> admits root false (recvd s) = true.
Proof. exact model_failed_listing_admitted. Qed.

(* A concrete tree (excluded folder with content, link, nested folder), its reference walk, and what
   the judge [admits] says about a good and a bad listing. *)
Example C17_example :
  let t := Dir true [ ("a"%char :: nil, (false, Dir true [ ("f"%char :: nil, (false, Leaf LFile)) ]));
                      ("s"%char :: nil, (true, Dir true [ ("g"%char :: nil, (false, Leaf LFile)) ]));
                      ("l"%char :: nil, (false, Leaf LLink)) ] in
  walk_spec [] t = [ (["a"%char :: nil], KDir); (["a"%char :: nil; "f"%char :: nil], KFile); (["l"%char :: nil], KLink) ]
  /\ admits t true [ (["l"%char :: nil], KLink); (["a"%char :: nil], KDir); (["a"%char :: nil; "f"%char :: nil], KFile) ] = true
  /\ admits t true [ (["a"%char :: nil; "f"%char :: nil], KFile); (["a"%char :: nil], KDir); (["l"%char :: nil], KLink) ] = false.
Proof. vm_compute. repeat split. Qed.

(* THE BRIDGE to the sync core (Proofs/WalkBridge.v).  [tree_of_fs incl f] is the walker's view of a
   file-system model f of the core (Model/Fs.v): the children of a folder are the keys one component
   longer, each with the filter verdict [incl] on its path; a link is a leaf; no unreadable folder.
   The reference walk of that tree lists exactly the entries the core calls visible (every strict
   non-root prefix an included real folder, the entry itself included) ... *)
Theorem C17_walk_lists_the_visible_entries : forall incl f, Fs.fget f [] = Some Fs.NFolder -> forall q k,
  In (q, k) (walk_spec [] (WalkBridge.tree_of_fs incl f)) <->
  Fs.visible incl f q = true /\ exists n, Fs.fget f q = Some n /\ k = WalkBridge.kind_of_node n.
Proof. exact WalkBridge.walk_tree_visible. Qed.

(* ... so what the consumer of the N-worker walk has received when it sees the end-of-list marker,
   completed with the entry details, is a [valid_listing] in [parents_first] order - the premise of the
   mirror, confinement, crash and idempotence theorems (C01, C02, C03, C04, C08, C12) - for every number of
   workers, queue capacity and interleaving; and every execution that runs until nothing is enabled
   ends that way. *)
Theorem C17_delivers_a_valid_listing : forall now_z incl normalize f N C s,
  N >= 1 -> Fs.fget f [] = Some Fs.NFolder ->
  reach N C (WalkBridge.tree_of_fs incl f) s -> cons s = CEos ->
  Mirror.valid_listing now_z incl normalize f (WalkBridge.with_details now_z normalize f (recvd s)) /\
  PlanSpec.parents_first (PlanSpec.lkeys (WalkBridge.with_details now_z normalize f (recvd s))).
Proof. intros now_z incl normalize. exact (WalkBridge.walker_listing_valid incl now_z normalize). Qed.
Theorem C17_every_run_ends_with_a_valid_listing : forall now_z incl normalize f N C s,
  N >= 1 -> C >= 1 -> Fs.fget f [] = Some Fs.NFolder ->
  reach N C (WalkBridge.tree_of_fs incl f) s -> (forall s', ~ step N C s s') ->
  cons s = CEos /\
  Mirror.valid_listing now_z incl normalize f (WalkBridge.with_details now_z normalize f (recvd s)) /\
  PlanSpec.parents_first (PlanSpec.lkeys (WalkBridge.with_details now_z normalize f (recvd s))).
Proof. intros now_z incl normalize. exact (WalkBridge.walker_run_ends_with_listing incl now_z normalize). Qed.

(* the bridge on a concrete tree: an excluded folder with content, a link, a nested folder *)
Example C17_bridge_example :
  let nm c := (c :: nil)%list in
  let f := [ ([], Fs.NFolder); ([nm "a"%char], Fs.NFolder); ([nm "a"%char; nm "f"%char], Fs.NFile (Fs.TSet 1) []);
             ([nm "s"%char], Fs.NFolder); ([nm "s"%char; nm "g"%char], Fs.NFile (Fs.TSet 2) []);
             ([nm "l"%char], Fs.NLink [] Core.SKFolder) ] in
  let incl p := negb (Core.path_eqb p [nm "s"%char]) in
  walk_spec [] (WalkBridge.tree_of_fs incl f) =
    [ ([nm "a"%char], KDir); ([nm "a"%char; nm "f"%char], KFile); ([nm "l"%char], KLink) ].
Proof. vm_compute. reflexivity. Qed.

Print Assumptions C17_exactly_once.
Print Assumptions C17_parent_first.
Print Assumptions C17_no_descent.
Print Assumptions C17_terminates.
Print Assumptions C17_no_stuck.
Print Assumptions C17_end_of_stream.
Print Assumptions C17_error_surfaces.
Print Assumptions C17_admits_spec.
Print Assumptions C17_model_listing_admitted.
Print Assumptions C17_model_failed_listing_admitted.
Print Assumptions C17_no_descent_unique.
Print Assumptions C17_walk_lists_the_visible_entries.
Print Assumptions C17_delivers_a_valid_listing.
Print Assumptions C17_every_run_ends_with_a_valid_listing.
