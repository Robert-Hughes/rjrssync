(* C15 - A remote doer is used only after a version match; deployment needs consent.
   Statements and their assumption audit; the proofs are in Proofs/KeyHexProofs.v, HandshakeProofs.v, LaunchProofs.v,
   LaunchSystemProofs.v. *)
From RJ Require Import Base.Prelude Model.KeyHex Model.Handshake Model.Launch Model.LaunchSystem
  Proofs.KeyHexProofs Proofs.HandshakeProofs Proofs.LaunchProofs Proofs.LaunchSystemProofs Gen.Facts.
From Coq Require Import String.
Local Open Scope N_scope.

(* The doer reconstructs every 16-byte key bit-exactly from what the boss prints
   (induction over the byte list: leading zero bytes are not a special case). *)
Theorem C15_key_roundtrip : forall k,
  List.length k = 16%nat -> Forall (fun b => b < 256) k -> parse_hex_u128_be (print_hex k) = Some k.
Proof. exact key_roundtrip. Qed.

(* ... also through the line protocol (boss appends a newline, the doer pops it). *)
Theorem C15_key_line_roundtrip : forall k,
  List.length k = 16%nat -> Forall (fun b => b < 256) k -> doer_key_of_line (key_line k) = Some k.
Proof. exact key_line_roundtrip. Qed.

(* The printed key is always 32 characters, and different keys print differently. *)
Theorem C15_key_print_width : forall k, List.length k = 16%nat -> List.length (print_hex k) = 32%nat.
Proof. exact key_print_width. Qed.

Theorem C15_key_print_injective : forall k1 k2,
  List.length k1 = 16%nat -> List.length k2 = 16%nat -> Forall (fun b => b < 256) k1 -> Forall (fun b => b < 256) k2 ->
  print_hex k1 = print_hex k2 -> k1 = k2.
Proof. exact print_hex_injective. Qed.

(* The configuration of the running code (Gen/Facts.v is regenerated from it on every run):
   its two handshake prefixes cannot be confused with each other. *)
Definition impl_cfg : hcfg := mkCfg impl_version impl_handshake_started impl_handshake_completed.

Theorem C15_prefixes_of_code : prefixes_ok impl_cfg.
Proof. vm_compute. reflexivity. Qed.

(* For every arrival order ([interleave]: any merge of what the two reader threads send, each
   thread stopping after its Completed line) that is causally possible ([causal]: no Completed
   line is seen before the stdout Started line, because the doer prints them only after it got
   the key), with any noise lines anywhere on both streams, of a doer that announces version [v]
   and listens on port [p]:
     v is our version  -> the launch succeeds with port p and the one key that was written, and
                          that single write happened while processing the stdout Started line;
     v is anything else -> IncompatibleVersion and no key write at all. *)
Theorem C15_handshake : forall c v p no1 no2 ne1 ne2 rest_o rest_e evs,
  prefixes_ok c -> p < 65536 ->
  Forall (fun l => is_noise c l = true) no1 -> Forall (fun l => is_noise c l = true) no2 ->
  Forall (fun l => is_noise c l = true) ne1 -> Forall (fun l => is_noise c l = true) ne2 ->
  interleave (reader c (transcript c v p no1 no2 rest_o)) (reader c (transcript c v p ne1 ne2 rest_e)) evs ->
  causal evs = true ->
  (v = own_version c ->
     exists j, run c true evs = (LSuccess p O, [j]) /\
               nth_error evs j = Some (Stdout, MStarted (started_line c v))) /\
  (v <> own_version c -> run c true evs = (LIncompat v, [])).
Proof. exact handshake_theorem. Qed.

(* Any event sequence whatsoever whose first Started line (on either stream) carries another
   version: no key is ever written and the launch does not succeed; when only harmless lines came
   before, the result is IncompatibleVersion with the announced version. *)
Theorem C15_no_key_on_mismatch : forall c wok pre s l post,
  Forall not_started pre -> version_of c l <> own_version c ->
  let r := run c wok (pre ++ (s, MStarted l) :: post) in
  snd r = [] /\
  (fst r = LIncompat (version_of c l) \/ fst r = LNotPresent \/ fst r = LCommErr) /\
  (Forall harmless pre -> fst r = LIncompat (version_of c l)).
Proof. exact run_no_key_on_mismatch. Qed.

(* For any event sequence at all: every key write happens while processing a Started line on
   stdout that carries exactly our version. *)
Theorem C15_key_only_after_match : forall c wok evs r ws,
  run c wok evs = (r, ws) -> forall j, In j ws ->
  exists l, nth_error evs j = Some (Stdout, MStarted l) /\ version_of c l = own_version c.
Proof. exact run_key_only_after_match. Qed.

(* For any event sequence at all: a successful launch wrote a key for a stdout Started line with
   our version, and every Started line it passed carried our version. *)
Theorem C15_success_only_after_match : forall c evs,
  is_success (fst (run c true evs)) -> matched_launch c evs.
Proof. exact success_matched. Qed.

(* The same statement without the [causal] premise: the loop composed with the doer side as a
   transition system (Model/LaunchSystem.v: per-stream FIFO delivery, streams independent, a
   Completed line deliverable only once the boss has written a key), for every schedule:
     safety       the loop never returns anything but Success p (our version; exactly one key
                  written by then, at most one before) resp. IncompatibleVersion v (another version;
                  no key ever written);
     no deadlock  a state in which neither stream can deliver is a state in which the loop has
                  returned Success with one key written;
     termination  every effective step consumes a message, so at most |stdout| + |stderr| of them. *)
Theorem C15_system_safe : forall c v p no1 no2 ne1 ne2 rest_o rest_e sched,
  prefixes_ok c -> p < 65536 ->
  Forall (fun l => is_noise c l = true) no1 -> Forall (fun l => is_noise c l = true) no2 ->
  Forall (fun l => is_noise c l = true) ne1 -> Forall (fun l => is_noise c l = true) ne2 ->
  let y := sys_run c sched (doer_streams c v p no1 no2 ne1 ne2 rest_o rest_e) in
  (v = own_version c ->
     (s_res y = None /\ (s_writes y <= 1)%nat) \/ (s_res y = Some (LSuccess p O) /\ s_writes y = 1%nat)) /\
  (v <> own_version c ->
     s_writes y = 0%nat /\ (s_res y = None \/ s_res y = Some (LIncompat v))).
Proof. exact system_safe. Qed.

Theorem C15_system_progress : forall c v p no1 no2 ne1 ne2 rest_o rest_e sched,
  prefixes_ok c -> p < 65536 -> v = own_version c ->
  Forall (fun l => is_noise c l = true) no1 -> Forall (fun l => is_noise c l = true) no2 ->
  Forall (fun l => is_noise c l = true) ne1 -> Forall (fun l => is_noise c l = true) ne2 ->
  let y := sys_run c sched (doer_streams c v p no1 no2 ne1 ne2 rest_o rest_e) in
  sys_stuck c y = true -> s_res y = Some (LSuccess p O) /\ s_writes y = 1%nat.
Proof. exact system_progress. Qed.

Theorem C15_system_terminates : forall c s y y',
  sys_step c s y = Some y' -> (sys_measure y' < sys_measure y)%nat.
Proof. exact sys_step_measure. Qed.

(* An upload happens only with consent: --deploy ok / force, or the prompt answered "Deploy". *)
Theorem C15_deploy_consent : forall b l1 l2 c1 c2 e,
  In AUpload (fst (setup_comms_r b l1 l2 c1 c2 e)) -> consent b e.
Proof. exact setup_upload_consent. Qed.

(* --deploy error or a cancelled (or unattended) prompt: nothing is uploaded, there is no second
   launch, a connection is only ever made to a doer that matched on the first launch, and when a
   deployment would have been needed the result is an error. *)
Theorem C15_no_consent_no_upload : forall b l1 l2 c1 c2 e,
  refused b e ->
  ~ In AUpload (fst (setup_comms_r b l1 l2 c1 c2 e)) /\
  (count_action ALaunch (fst (setup_comms_r b l1 l2 c1 c2 e)) <= 1)%nat /\
  (forall n, snd (setup_comms_r b l1 l2 c1 c2 e) = SConnected n -> n = 1%nat /\ is_success l1) /\
  (needs_deploy l1 -> snd (setup_comms_r b l1 l2 c1 c2 e) = SErr).
Proof. exact setup_refused. Qed.

(* At most two launches; a connection after the second one needs an upload and a successful second
   launch; a failing second launch is an error; setup_comms never reaches the panic. *)
Theorem C15_retry_once : forall b l1 l2 c1 c2 e,
  (count_action ALaunch (fst (setup_comms_r b l1 l2 c1 c2 e)) <= 2)%nat /\
  (forall n, snd (setup_comms_r b l1 l2 c1 c2 e) = SConnected n ->
     (n = 1%nat /\ is_success l1 /\ b <> DbForce /\ count_action ALaunch (fst (setup_comms_r b l1 l2 c1 c2 e)) = 1%nat) \/
     (n = 2%nat /\ is_success l2 /\ In AUpload (fst (setup_comms_r b l1 l2 c1 c2 e)))) /\
  (count_action ALaunch (fst (setup_comms_r b l1 l2 c1 c2 e)) = 2%nat -> ~ is_success l2 -> l2 <> LBlocked ->
     snd (setup_comms_r b l1 l2 c1 c2 e) = SErr) /\
  snd (setup_comms_r b l1 l2 c1 c2 e) <> SPanic.
Proof. exact setup_retry_once. Qed.

Theorem C15_deploy_never_panics : forall b e, is_panic (snd (deploy b e)) = false.
Proof. exact deploy_no_panic. Qed.

(* Composition with the handshake: a connection (hence any sync traffic) exists only with a doer
   whose launch wrote its key for a stdout Started line carrying exactly our version. *)
Theorem C15_traffic_only_after_match : forall c b evs1 evs2 c1 c2 e,
  (forall n, snd (setup_comms c b evs1 evs2 c1 c2 e) = SConnected n ->
     (n = 1%nat /\ matched_launch c evs1) \/ (n = 2%nat /\ matched_launch c evs2)) /\
  (In AConnect (fst (setup_comms c b evs1 evs2 c1 c2 e)) -> matched_launch c evs1 \/ matched_launch c evs2).
Proof. exact traffic_only_after_match. Qed.

(* Both doers remote: the syncs run only when both sides connected; a failing source stops the
   run (exit 10) before the destination is even launched, a failing destination gives exit 11. *)
Theorem C15_both_doers : forall src dest,
  (snd (connect_both src dest) = BothConnected ->
     (exists n, snd src = SConnected n) /\ (exists n, snd dest = SConnected n)) /\
  (snd src = SErr -> connect_both src dest = (fst src, BothExit 10)) /\
  ((exists n, snd src = SConnected n) -> snd dest = SErr -> snd (connect_both src dest) = BothExit 11).
Proof. exact connect_both_facts. Qed.

(* Non-vacuity. *)
Example C15_key_example :
  parse_hex_u128_be (print_hex [0;0;0;0;0;0;0;0;0;0;0;0;0;0;0;10]) = Some [0;0;0;0;0;0;0;0;0;0;0;0;0;0;0;10]
  /\ print_hex [0;1;255] = ["0";"0";"0";"1";"f";"f"]%char.
Proof. vm_compute. split; reflexivity. Qed.

(* The premises of C15_handshake hold for the running code's configuration and a stderr-first
   arrival order with noise; the conclusion is what the extracted automaton computes. *)
Example C15_handshake_example :
  let c := impl_cfg in
  let n := hlit "Warning: Permanently added"%string in
  let evs := [ (Stderr, MLine n); (Stderr, MStarted (started_line c (own_version c)));
               (Stdout, MStarted (started_line c (own_version c))); (Stdout, MLine n);
               (Stdout, MCompleted (completed_line c 40123)); (Stderr, MCompleted (completed_line c 40123)) ] in
  is_noise c n = true /\
  interleave (reader c (transcript c (own_version c) 40123 [] [n] [REof])) (reader c (transcript c (own_version c) 40123 [n] [] [])) evs /\
  causal evs = true /\ run c true evs = (LSuccess 40123 O, [2%nat]).
Proof. vm_compute. repeat split; repeat constructor. Qed.

Example C15_deploy_example :
  setup_comms_r DbPrompt LNotPresent (LSuccess 1 O) true true (mkDenv (OsOk false true) true AnsDeploy true true)
    = ([ALaunch; AOsTest; APrompt; AUpload; AChmod; ALaunch; AConnect], SConnected 2) /\
  setup_comms_r DbPrompt LNotPresent (LSuccess 1 O) true true (mkDenv (OsOk false true) true AnsCancel true true)
    = ([ALaunch; AOsTest; APrompt], SErr).
Proof. vm_compute. split; reflexivity. Qed.

Example C15_system_example :
  let c := impl_cfg in
  let y := sys_run c [Stderr; Stdout; Stderr; Stdout; Stdout; Stderr; Stderr; Stdout]
             (doer_streams c (own_version c) 40123 [] [hlit "x"%string] [hlit "motd"%string] [] [] []) in
  s_res y = Some (LSuccess 40123 O) /\ s_writes y = 1%nat /\ sys_stuck c y = true.
Proof. vm_compute. repeat split. Qed.

Print Assumptions C15_key_roundtrip.
Print Assumptions C15_system_safe.
Print Assumptions C15_handshake.
Print Assumptions C15_traffic_only_after_match.
Print Assumptions C15_retry_once.
