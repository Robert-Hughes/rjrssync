(* C02 - The source is never modified; nothing outside the destination is touched.  Statements only. *)
From RJ Require Import Base.Prelude Base.OrderedPlan Model.Settings Model.Core Model.Fs Model.Paths Model.Sync Model.SyncTop
  Spec.PlanSpec Spec.Mirror Proofs.FsProofs Proofs.ExecProofs Proofs.DryProofs Proofs.ConfineProofs Proofs.MirrorProofs
  Proofs.QuietProofs Proofs.InstanceProofs Proofs.BlockProofs Proofs.ConfineAll Proofs.RepairMain.
From RJ Require Model.Walker Proofs.WalkBridge Proofs.WalkedSync.
From RJ Require Import Model.SpecRun Proofs.SpecProofs.

(* In protocol terms: whatever the arguments, outcome, answers given to prompts or faults met, the
   source-side doer is only ever asked to report its root, list entries and read file contents ... *)
Theorem C02_source_only_read : forall now_z normalize chunker cfg S D ans bits ls ld ft,
  Forall (fun c => read_only c = true) (r_src_trace (sync_one now_z normalize chunker cfg S D ans bits ls ld ft)).
Proof. exact source_only_read. Qed.

(* ... and none of these requests changes anything in a doer's world (tree, ancestors, clock, event log). *)
Theorem C02_read_only_changes_nothing : forall fl st c, read_only c = true -> doer_exec fl st c = (st, None).
Proof. exact doer_exec_read_only. Qed.

(* An effect can leave the destination tree only by resolving through a symlink that exists in the
   destination at that moment (intermediate component, or final component of a file creation). *)
Theorem C02_through_needs_link : forall fl st c q,
  In (Through q) (skipn (length (d_events st)) (d_events (fst (doer_exec fl st c)))) ->
  exists t k, fget (d_fs st) q = Some (NLink t k).
Proof. exact through_needs_link. Qed.

(* Nothing outside the destination is touched (except for creating the missing ancestors) by a sync
   that returns Ok and skips nothing - for every tree pair (destination symlinks to anywhere included),
   setting, answer sequence, valid parents-first listing order, interleaving and fault plan. *)
Theorem C02_clean_run_confined : forall now_z incl normalize chunker,
  (forall d, chunker d <> [] /\ concat (chunker d) = d) ->
  forall cfg S D ans bits ls ld ft,
  valid_listing now_z incl normalize S ls -> valid_listing now_z incl normalize (d_fs D) ld ->
  parents_first (lkeys (side_listing now_z normalize S ls)) ->
  parents_first (lkeys (side_listing now_z normalize (d_fs D) ld)) ->
  wf_fs (d_fs D) -> d_open D = None -> no_through (d_events D) ->
  let r := sync_one now_z normalize chunker cfg S D ans bits ls ld ft in
  r_ok r = true -> r_skipped r = [] -> r_root_skipped r = false -> cf_dry cfg = false ->
  no_through (d_events (r_dest r)).
Proof. intros now_z incl normalize chunker _. apply clean_run_confined. Qed.

(* ... and, with the F6b repair in place, for EVERY outcome: a sync in which nothing was skipped never resolves
   a path through a destination symlink - whatever command fails, at whatever position, real or injected,
   whatever source read fails, however late the boss notices, wherever the doer dies (Proofs/ConfineAll.v:
   invariant "a link on the destination is an original one not yet due for deletion, or one this run created
   - below which the plan has nothing -, or its path is blocked by a failed deletion, or nothing mutating
   runs any more"). *)
Theorem C02_every_run_confined : forall now_z incl normalize chunker cfg S D ans bits ls ld ft,
  valid_listing now_z incl normalize S ls -> valid_listing now_z incl normalize (d_fs D) ld ->
  parents_first (lkeys (side_listing now_z normalize S ls)) -> parents_first (lkeys (side_listing now_z normalize (d_fs D) ld)) ->
  wf_fs (d_fs D) -> no_through (d_events D) ->
  let r := sync_one now_z normalize chunker cfg S D ans bits ls ld ft in
  r_skipped r = [] -> no_through (d_events (r_dest r)).
Proof. exact all_runs_confined. Qed.

Theorem C02_every_run_confined_executable : forall cfg S D a ans bits ex ft,
  unique_keys S -> wf_fs S -> unique_keys D -> wf_fs D ->
  let r := run_top cfg S D a ans bits ex ft in
  r_skipped r = [] -> no_through (d_events (r_dest r)).
Proof. exact run_top_all_confined. Qed.

(* ... and also when the user skipped entries (the F6a repair: nothing is copied at or below a kept entry that
   is in the way): NO run ever resolves a path through a destination symlink. *)
Theorem C02_no_run_goes_through_a_link : forall now_z incl normalize chunker cfg S D ans bits ls ld ft,
  valid_listing now_z incl normalize S ls -> valid_listing now_z incl normalize (d_fs D) ld ->
  parents_first (lkeys (side_listing now_z normalize S ls)) -> parents_first (lkeys (side_listing now_z normalize (d_fs D) ld)) ->
  wf_fs (d_fs D) -> no_through (d_events D) ->
  no_through (d_events (r_dest (sync_one now_z normalize chunker cfg S D ans bits ls ld ft))).
Proof. exact no_run_goes_through_a_link. Qed.

Theorem C02_executable_never_through : forall cfg S D a ans bits ex ft,
  unique_keys S -> wf_fs S -> unique_keys D -> wf_fs D ->
  no_through (d_events (r_dest (run_top cfg S D a ans bits ex ft))).
Proof. exact run_top_never_through. Qed.

(* ... and with the listing premises discharged by the directory walk (C17, Proofs/WalkBridge.v): given on each
   side whatever any execution of the N-worker walk over that side's tree delivers, NO run resolves a path
   through a destination symlink. *)
Theorem C02_walked_never_through : forall now_z incl normalize chunker cfg S D ans bits ls ld ft,
  wf_fs S -> wf_fs (d_fs D) -> no_through (d_events D) ->
  WalkedSync.walked now_z incl normalize S ls -> WalkedSync.walked now_z incl normalize (d_fs D) ld ->
  no_through (d_events (r_dest (sync_one now_z normalize chunker cfg S D ans bits ls ld ft))).
Proof. exact WalkedSync.walked_sync_never_through. Qed.

(* A dry run leaves the whole destination world as it is (C05), in particular its event log. *)
Theorem C02_dry_run_confined : forall now_z normalize chunker cfg S D ans bits ls ld ft,
  cf_dry cfg = true -> r_dest (sync_one now_z normalize chunker cfg S D ans bits ls ld ft) = D.
Proof. intros. apply (dry_run_inert now_z normalize chunker cfg S D ans bits ls ld ft H). Qed.

(* F6b (repaired by a fix: commit): when the deletion of a destination entry FAILS, commands are already
   queued behind it for that path or anything inside it.  Before the F6b fix they were still performed -
   through the link, if a link was what could not be deleted.  The doer remembers a failed deletion and
   refuses them: *)
Theorem C02_blocked_refused : forall fl st c p,
  path_cmd c = Some p -> blocked_at st p = true -> doer_exec fl st c = (st, Some ERefused).
Proof. exact blocked_refused. Qed.

Theorem C02_failed_delete_blocks : forall fl st c p e q,
  is_del c = true -> path_cmd c = Some p -> snd (doer_exec fl st c) = Some e ->
  is_prefix p q = true -> blocked_at (fst (doer_exec fl st c)) q = true.
Proof. exact failed_delete_blocks. Qed.

Theorem C02_blocked_stays : forall fl st c p, blocked_at st p = true -> blocked_at (fst (doer_exec fl st c)) p = true.
Proof. exact blocked_stays. Qed.

(* The witness of the behaviour before the fix (link-delete answered with an error, the boss notices two
   steps later): the queued creation of f is refused, nothing goes through the link, the link is still there. *)
Definition f6b_S : fs := [ ([], NFolder); ([["f"%char]], NFile (TSet 10) ["x"%char]) ].
Definition f6b_D : fs := [ ([], NFolder); ([["f"%char]], NLink ["t"%char] SKFile) ].
Example C02_former_witness_contained :
  let r := run_top (mkCfg false Unix (mkB BAct BAct BSkip BAct) BAct false) f6b_S f6b_D AncOk [] [] [] (mkFaults [0] [] 2 None) in
  r_ok r = false /\ d_events (r_dest r) = [] /\ r_errs r = [EInjected; ERefused] /\
  fget (d_fs (r_dest r)) [["f"%char]] = Some (NLink ["t"%char] SKFile).
Proof. vm_compute. repeat split; reflexivity. Qed.

(* A spec with several syncs (Model/SpecRun.v): a root that is no sync's destination - in particular every root
   that is only ever a source - holds exactly the same tree at the end of the run, however the run ends. *)
Theorem C02_spec_untouched : forall jobs i st,
  (forall j, In j jobs -> j_dst j <> i) -> sget (sp_store (run_spec jobs st)) i = sget st i.
Proof. exact spec_untouched. Qed.

Print Assumptions C02_source_only_read.
Print Assumptions C02_clean_run_confined.
Print Assumptions C02_through_needs_link.
Print Assumptions C02_every_run_confined.
Print Assumptions C02_every_run_confined_executable.
Print Assumptions C02_no_run_goes_through_a_link.
Print Assumptions C02_executable_never_through.
Print Assumptions C02_blocked_refused.
Print Assumptions C02_failed_delete_blocks.
Print Assumptions C02_blocked_stays.

(* The one syntactic fact (regenerated on every run from the source text being compiled): the only
   Command kinds boss_sync.rs sends through src_comms are the three read-only ones. *)
From RJ Require Import Gen.Facts_sites.
From Coq Require Import String.
Theorem C02_src_sites_read_only : impl_src_sends = Facts_sites.flit "GetEntries,GetFileContent,SetRoot"%string.
Proof. reflexivity. Qed.
Print Assumptions C02_walked_never_through.
Print Assumptions C02_spec_untouched.

(* F14: the name under which a file or symlink source is placed inside a trailing-slash destination (Model/RootName.v) *)
From RJ Require Import Model.RootName Proofs.RootNameProofs.
From Coq Require Import String.
Theorem C02_inside_root_adds_one_component : forall src dest, exists name, inside_root false src dest = dest ++ name /\ name = posix_basename src /\ Forall (fun c => c <> "/"%char) name.
Proof. exact C01_inside_root_is_child. Qed.
Theorem C02_F14_refuted_before_fix : exists src dest, posix_basename src = s_of "x\.." /\ inside_root_old src dest = s_of "box/dest/.." /\ inside_root false src dest = s_of "box/dest/x\..".
Proof. exact F14_old_name_escapes. Qed.
Print Assumptions C02_inside_root_adds_one_component.
Print Assumptions C02_F14_refuted_before_fix.
