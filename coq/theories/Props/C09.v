(* C09 - Every run terminates, also when something breaks mid-transfer.
   Statements only (proofs in Proofs/Shutdown*.v over Model/Shutdown.v), each closed by [exact].

   Full statement of the property, for the local placement:
     for every capacity (0 included), every source tree (any number of files, any chunk sequence - also one that
     differs from the listed size: the file grew or shrank), every fault plan (error reply to any destination
     command, to any GetFileContent; either doer thread dying at any moment) and every interleaving:
     (a) no reachable state is stuck before the process has returned [C09_no_stuck],
     (b) every step decreases a numeric measure, so every scheduler reaches the end within mu(init) steps,
         without any fairness assumption [C09_step_decreases, C09_terminates],
     (c) when the boss reported a failed sync or a doer thread died, the exit status is not 0; otherwise it is 0
         [C09_exit_nonzero, C09_clean_exit_zero].
   (a) holds for the repaired protocol (fixed = true) and is FALSE for the pinned tree (fixed = false):
   [C09_refuted_unfixed] is the F5 witness.  (b) and (c) hold for both.
   Premise of (a): ctl_ok - the control messages (commands to the source, replies of the destination) stay
   below the capacity in total; the data-carrying channels are unrestricted (below / at / above capacity).
   The remote placement (comms threads, socket, ssh) is the second half of this file: what is proved of it and
   what is left to the differential runs is listed there;
   "every fault the doer *answered* is seen by the boss before the Done marker" is C07's theorem. *)
From RJ Require Import Base.Prelude Model.Shutdown Proofs.ShutdownProofs Proofs.ShutdownInv Proofs.ShutdownNoStuck Proofs.ShutdownImpl Model.Async Proofs.AsyncProofs.

Theorem C09_no_stuck : forall c x s,
  fixed c = true -> ctl_ok c x -> reach c x s -> final s = true \/ exists s', step c s s'.
Proof. exact no_stuck. Qed.

(* The running code implements the repaired protocol (behavioural facts regenerated from the code on every
   run: a sender waiting for capacity wakes when its receiver is dropped; the local Comms::shutdown returns
   although the doer waits for capacity) - so (a) is a statement about the protocol the code runs. *)
Theorem C09_impl_repaired : impl_fixed = true.
Proof. exact impl_repaired. Qed.

Theorem C09_no_stuck_impl : forall c x s,
  fixed c = impl_fixed -> ctl_ok c x -> reach c x s -> final s = true \/ exists s', step c s s'.
Proof. exact no_stuck_impl. Qed.

Theorem C09_step_decreases : forall c s s', step c s s' -> mu s' < mu s.
Proof. intros c s s' [a H]. exact (step_decreases c a s s' H). Qed.

Theorem C09_terminates : forall c s, Acc (fun a b => step c b a) s.
Proof. exact terminates. Qed.

Theorem C09_exit_nonzero : forall c x s, reach c x s -> final s = true ->
  berr (bo s) = true \/ is_dead (slife (sd s)) = true \/ is_dead (dlife (dd s)) = true ->
  bexit (bo s) <> 0%N.
Proof. exact exit_nonzero. Qed.

Theorem C09_clean_exit_zero : forall c x s, reach c x s -> final s = true ->
  berr (bo s) = false -> is_dead (slife (sd s)) = false -> is_dead (dlife (dd s)) = false ->
  bexit (bo s) = 0%N.
Proof. exact clean_exit_zero. Qed.

(* The pinned tree: a reachable, non-final state without any enabled step (the boss joins the source doer,
   which waits for capacity in a channel nobody drains). *)
Theorem C09_refuted_unfixed : exists c x s,
  fixed c = false /\ ctl_ok c x /\ reach c x s /\ final s = false /\ forall s', ~ step c s s'.
Proof.
  destruct refuted_unfixed as (c & x & s & H1 & H2 & H3 & H4).
  exists c, x, s. destruct (stuck_sound _ _ H4). auto.
Qed.

(* ... and only above capacity: when everything that can ever be queued in the two data-carrying channels fits
   in the capacity (data_ok), no reachable state is stuck - with or without the repair. *)
Theorem C09_holds_below_capacity : forall c x s,
  ctl_ok c x -> data_ok c x -> reach c x s -> final s = true \/ exists s', step c s s'.
Proof. exact holds_below_capacity. Qed.

(* The executable model the judge runs (priority schedules, fuel = measure + 1) only visits reachable states
   and ends where no action of the order is enabled. *)
Theorem C09_run_sound : forall c x ord,
  reach c x (run_to_end c ord (init x)) /\
  forall a, In a ord -> next c a (run_to_end c ord (init x)) = None.
Proof. exact run_sound. Qed.

(* Non-vacuity: the F5 scenario on the repaired protocol ends with exit status 12 and the source doer
   thread returning Err ("Lost communication with Local boss"), as the repaired implementation does. *)
Example C09_example :
  let s := run_to_end (w_cfg true) w_order (init w_sc) in
  ctl_ok (w_cfg true) w_sc /\ final s = true /\ bexit (bo s) = 12%N /\ slife (sd s) = ExitErr.
Proof. split; [split; apply N.leb_le; vm_compute; reflexivity | vm_compute; repeat split]. Qed.

(* The sync layer above it (Model/Async.v: the boss streaming the plan's commands, the destination doer executing
   and answering in order, the final marker): every interleaving is finite - at most 3 * |plan| + 4 transitions -
   whatever the commands do and whichever of them fail. *)
Theorem C09_sync_layer_step_decreases : forall exec s s', Async.astep exec s s' -> ameasure s' < ameasure s.
Proof. exact astep_decreases. Qed.
Theorem C09_sync_layer_terminates : forall exec d0 steps n s,
  apath exec n (Async.ainit d0 steps) s -> n <= 3 * length steps + 4.
Proof. exact async_terminates. Qed.

Print Assumptions C09_no_stuck.
Print Assumptions C09_terminates.
Print Assumptions C09_exit_nonzero.
Print Assumptions C09_refuted_unfixed.
Print Assumptions C09_holds_below_capacity.
Print Assumptions C09_sync_layer_terminates.

(* REMOTE placement: one boss <-> one remote doer session (Model/RemoteSession.v: boss main thread, its sending and
   receiving threads, the doer's main thread, its two comms threads and its stdin watchdog, four byte-accounted
   channels of any capacity (0 included), one bounded FIFO of frames per direction (any capacity >= 1), ssh;
   faults from a finite budget at any moment: TCP cut, bad frame in either direction, doer killed, the doer's
   stdin closed early, Error replies).  Proofs in Proofs/RemoteSession{Base,Witness}.v.

   What is claimed of the session is numbered (S1)-(S6): (S1) delivery and (S2) completeness are in Props/C14.v, (S6)
   the nonces in Props/C10.v; here, for EVERY protocol the boss can run on the connection (a list of send / blocking
   receive / polling receive operations), every capacity, every socket capacity, every fault plan and interleaving:
     (S4) every step decreases the numeric measure RemoteSession.mu; Acc of the reversed step relation -
          no scheduler, fair or not, can run for ever [C09_remote_step_decreases, C09_remote_terminates];
          the executable runs of the judge only visit reachable states [C09_remote_run_sound, C09_remote_plan_run_sound].
     (S3) C09_remote_no_stuck : forall c x s, resp_ok c x -> covered 0 (sc_ops x) = true -> reach c x s ->
              final s = true \/ exists s', step c s s'
          is proved in part.  Both premises are NEEDED (reachable stuck states without them:
          [C09_remote_needs_resp_ok], [C09_remote_needs_covered]).  Proved without any premise: every state with the
          link down in any way [C09_remote_no_stuck_link_down] (the doer process gone: [C09_remote_no_stuck_partial])
          and the final wait of a fault-free run [C09_remote_no_stuck_faultfree_partial].  Open: the other states with
          the link up, (B1)-(B3) at the end of this file.  The statement as a whole is checked only by the
          differential runs (tools/remote_session_lib.py: the judge reports stuck=1 for any schedule that ends in a
          non-final state).
     (S5) "a fault before the boss has received the final message => the boss's result is an error" is FALSE of the
          faithful model and of the real binary [C09_remote_exit_refuted]: a cut after the last response was written
          leaves a complete, correctly reported sync with exit status 0 (Comms::shutdown only logs the missing final
          message).  Closed examples of the statuses: 12 / 20 / 65 / 137 [C09_remote_example_statuses]; a fault-free
          run may end with doer status 65 instead of 0 (race between `return` from doer_main and the stdin watchdog
          once the boss has dropped stdin) [C09_remote_example_clean_65]. *)
From RJ Require Model.RemoteSession Proofs.RemoteSessionBase Proofs.RemoteSessionWitness.

Theorem C09_remote_step_decreases : forall c s s',
  RemoteSession.step c s s' -> RemoteSession.mu s' < RemoteSession.mu s.
Proof. intros c s s' [a H]. exact (RemoteSessionBase.step_decreases c a s s' H). Qed.

Theorem C09_remote_terminates : forall c s, Acc (fun a b => RemoteSession.step c b a) s.
Proof. exact RemoteSessionBase.terminates. Qed.

Theorem C09_remote_run_sound : forall c x ord,
  RemoteSession.reach c x (RemoteSession.run_to_end c ord (RemoteSession.init x)) /\
  forall a, In a ord -> RemoteSession.next c a (RemoteSession.run_to_end c ord (RemoteSession.init x)) = None.
Proof. exact RemoteSessionBase.run_sound. Qed.

Theorem C09_remote_plan_run_sound : forall c x ord pl,
  RemoteSession.reach c x (RemoteSession.run_plan_to_end c ord pl (RemoteSession.init x)).
Proof. exact RemoteSessionBase.run_plan_sound. Qed.

(* the premises of (S3) are needed: reachable, non-final states without any enabled step *)
Theorem C09_remote_needs_resp_ok : exists c x s,
  RemoteSession.covered 0 (RemoteSession.sc_ops x) = true /\ ~ RemoteSession.resp_ok c x /\
  RemoteSession.reach c x s /\ RemoteSession.final s = false /\ forall s', ~ RemoteSession.step c s s'.
Proof.
  destruct RemoteSessionWitness.needs_resp_ok as (H1 & H2 & H3 & H4).
  eexists _, _, _. destruct (RemoteSessionBase.stuck_sound _ _ H4). eauto.
Qed.

Theorem C09_remote_needs_covered : exists c x s,
  RemoteSession.resp_ok c x /\ RemoteSession.covered 0 (RemoteSession.sc_ops x) = false /\
  RemoteSession.reach c x s /\ RemoteSession.final s = false /\ forall s', ~ RemoteSession.step c s s'.
Proof.
  destruct RemoteSessionWitness.needs_covered as (H1 & H2 & H3 & H4).
  eexists _, _, _. destruct (RemoteSessionBase.stuck_sound _ _ H4). eauto.
Qed.

(* (S5) as literally stated is false: a fault step, before the boss had the final message, and exit status 0 *)
Theorem C09_remote_exit_refuted : exists c x s,
  RemoteSession.reach c x s /\ RemoteSession.final s = true /\ 0 < RemoteSession.nfault (RemoteSession.ev s) /\
  RemoteSession.bfin (RemoteSession.bm s) = false /\ RemoteSession.bexit (RemoteSession.bm s) = 0%N /\
  RemoteSession.dstat (RemoteSession.ev s) = Some 0%N /\ RemoteSession.dexec (RemoteSession.dm s) = [1%N].
Proof. exact RemoteSessionWitness.exit_refuted. Qed.

Example C09_remote_example_clean : exists c x s,
  RemoteSession.reach c x s /\ RemoteSession.final s = true /\ RemoteSession.bexit (RemoteSession.bm s) = 0%N /\
  RemoteSession.dstat (RemoteSession.ev s) = Some 0%N /\ RemoteSession.dexec (RemoteSession.dm s) = [1; 2; 3]%N.
Proof.
  eexists _, RemoteSessionWitness.sc_small, _. split; [apply RemoteSessionBase.run_sound|].
  destruct RemoteSessionWitness.clean_run as (A & B & C & D & _). eauto.
Qed.

Example C09_remote_example_clean_65 : exists c x s,
  RemoteSession.reach c x s /\ RemoteSession.final s = true /\ RemoteSession.bexit (RemoteSession.bm s) = 0%N /\
  RemoteSession.dstat (RemoteSession.ev s) = Some 65%N /\ RemoteSession.nfault (RemoteSession.ev s) = 0.
Proof.
  eexists _, RemoteSessionWitness.sc_small, _. split; [apply RemoteSessionBase.run_sound|].
  destruct RemoteSessionWitness.clean_run_status_65 as (A & B & C & D & _). eauto.
Qed.

Example C09_remote_example_statuses :
  (exists c x s, RemoteSession.reach c x s /\ RemoteSession.final s = true /\
     RemoteSession.bexit (RemoteSession.bm s) = 12%N /\ RemoteSession.dstat (RemoteSession.ev s) = Some 20%N) /\
  (exists c x s, RemoteSession.reach c x s /\ RemoteSession.final s = true /\
     RemoteSession.bexit (RemoteSession.bm s) = 12%N /\ RemoteSession.dstat (RemoteSession.ev s) = Some 65%N) /\
  (exists c x s, RemoteSession.reach c x s /\ RemoteSession.final s = true /\
     RemoteSession.bexit (RemoteSession.bm s) = 12%N /\ RemoteSession.dstat (RemoteSession.ev s) = Some 137%N).
Proof.
  split; [|split].
  - eexists _, _, _. split; [apply RemoteSessionBase.run_plan_sound|]. exact RemoteSessionWitness.doer_status_20.
  - eexists _, _, _. split; [apply RemoteSessionBase.run_plan_sound|]. exact RemoteSessionWitness.stdin_closed_early.
  - eexists _, _, _. split; [apply RemoteSessionBase.run_plan_sound|].
    destruct RemoteSessionWitness.doer_killed as (A & B & C & _). eauto.
Qed.

Print Assumptions C09_remote_step_decreases.
Print Assumptions C09_remote_terminates.
Print Assumptions C09_remote_run_sound.
Print Assumptions C09_remote_plan_run_sound.
Print Assumptions C09_remote_needs_resp_ok.
Print Assumptions C09_remote_needs_covered.
Print Assumptions C09_remote_exit_refuted.

(* (S3) with NO premise, the doer process gone - killed at any moment, exited with 0 / 20 / 65, whatever was queued
   anywhere, any capacity: the boss side is never stuck.  Every reachable state with the doer process ended is final or
   has a successor, so (with C09_remote_terminates) the boss returns from Comms::shutdown.
   Proof: Proofs/RemoteSessionComplete.v over the invariants of Proofs/RemoteSessionAInv.v. *)
From RJ Require Proofs.RemoteSessionAInv Proofs.RemoteSessionComplete.

Theorem C09_remote_no_stuck_partial : forall c x s, RemoteSession.reach c x s ->
  RemoteSession.dalive (RemoteSession.ev s) = false ->
  RemoteSession.final s = true \/ exists s', RemoteSession.step c s s'.
Proof. exact RemoteSessionComplete.no_stuck_doer_gone. Qed.

(* non-trivial instance of the premise: the doer killed after two commands, the run ends with status 12 *)
Example C09_remote_example_doer_gone : exists c x s,
  RemoteSession.reach c x s /\ RemoteSession.dalive (RemoteSession.ev s) = false /\
  RemoteSession.final s = true /\ RemoteSession.bexit (RemoteSession.bm s) = 12%N.
Proof.
  exists (RemoteSessionWitness.cfg 1000%N 0),
    (RemoteSession.mkSc (RemoteSession.sc_ops RemoteSessionWitness.sc_small) [] false true false 0),
    (RemoteSession.run_plan_to_end (RemoteSessionWitness.cfg 1000%N 0) RemoteSessionWitness.eager_boss
       [(RemoteSession.TExec 2, RemoteSession.FKill)]
       (RemoteSession.init (RemoteSession.mkSc (RemoteSession.sc_ops RemoteSessionWitness.sc_small) [] false true false 0))).
  split; [apply RemoteSessionBase.run_plan_sound | vm_compute; repeat split].
Qed.

Print Assumptions C09_remote_no_stuck_partial.

(* (S3) with NO premise, the link down in ANY way - the TCP connection is cut, or the boss has closed its end of the
   socket, or the doer's stdin is closed, or the doer process is gone: every such reachable state is final or has a
   successor.  Proofs/RemoteSessionLinkDown.v: while the doer lives and its socket is broken some thread
   of the doer can always move (blocked sends wake through receiver_alive / the dying threads, joins see their threads
   end, the final write fails at once); with stdin closed the watchdog can move; with the doer gone
   C09_remote_no_stuck_partial applies.  Corollaries named after the fault: _after_cut, _after_stdin_closed.
   This leaves the states with the link UP (not cut, both socket ends open, stdin open, doer alive) - fault-free runs and
   runs after a bad frame or an Error reply; that is where resp_ok and covered are needed (C09_remote_needs_resp_ok /
   _needs_covered are such states). *)
From RJ Require Proofs.RemoteSessionLinkDown Proofs.RemoteSessionWitness2.

Theorem C09_remote_no_stuck_link_down : forall c x s, RemoteSession.reach c x s ->
  RemoteSessionLinkDown.link_down s = true ->
  RemoteSession.final s = true \/ exists s', RemoteSession.step c s s'.
Proof. exact RemoteSessionLinkDown.no_stuck_link_down. Qed.

Theorem C09_remote_no_stuck_after_cut : forall c x s, RemoteSession.reach c x s ->
  RemoteSession.cut (RemoteSession.ev s) = true ->
  RemoteSession.final s = true \/ exists s', RemoteSession.step c s s'.
Proof.
  intros c x s R H. apply (RemoteSessionLinkDown.no_stuck_link_down c x s R).
  unfold RemoteSessionLinkDown.link_down. rewrite H. reflexivity.
Qed.

Theorem C09_remote_no_stuck_after_stdin_closed : forall c x s, RemoteSession.reach c x s ->
  RemoteSession.stdin_open (RemoteSession.ev s) = false ->
  RemoteSession.final s = true \/ exists s', RemoteSession.step c s s'.
Proof.
  intros c x s R H. apply (RemoteSessionLinkDown.no_stuck_link_down c x s R).
  unfold RemoteSessionLinkDown.link_down. rewrite H. cbn [negb]. now rewrite orb_true_r.
Qed.

(* the premise is met by a non-final state: the connection cut while the boss's first command is on the wire *)
Example C09_remote_example_cut_state : exists c x s,
  RemoteSession.reach c x s /\ RemoteSession.cut (RemoteSession.ev s) = true /\ RemoteSession.final s = false /\
  RemoteSession.dalive (RemoteSession.ev s) = true.
Proof.
  exists (RemoteSessionWitness.cfg 1000%N 0), RemoteSessionWitness2.sc_cut, RemoteSessionWitness2.s_cut.
  destruct RemoteSessionWitness2.cut_state as (A & B & C & D & _). split; [exact A|]. split; [exact B|]. split; [exact C | exact D].
Qed.

Print Assumptions C09_remote_no_stuck_link_down.
Print Assumptions C09_remote_no_stuck_after_cut.
Print Assumptions C09_remote_no_stuck_after_stdin_closed.

(* (S3) with the link UP.  Proofs/RemoteSessionBlocked.v (one lemma per thread kind: what must hold
   when it cannot move; C09_remote_stuck_shape assembles them), Proofs/RemoteSessionPot.v (the potential rpot: everything
   that can still arrive in the boss's receive channel; it never grows, under every fault),
   Proofs/RemoteSessionAInv.v (the structural invariants), Proofs/RemoteSessionLinkUp.v.
     C09_remote_receiver_never_waits : under resp_ok, in EVERY reachable state (faults or not) the boss's receiving
        thread can push what it holds - the blocked kind "receiving thread of the boss waits for capacity" never occurs.
     C09_remote_stuck_shape : a non-final state with the link up and no successor has every one of its six threads
        blocked in one of the listed ways (boss_blocked / snd_blocked / rcv_blocked / doer_blocked).
     C09_remote_no_stuck_faultfree_partial : NO premise about capacities or the protocol: a reachable state of a run
        without fault steps in which the boss waits for the final message (BFinal) or joins its receiving thread
        (BJoinR) is final or has a successor.
   Open for the fault-free runs (and hence for C09_remote_no_stuck): the boss main thread blocked
     (B1) in a send (application command or Shutdown): needs receiver_never_waits (proved) + the boss-side mirror of FFA
          for the RECEIVING thread (it ends with Err only after the boss dropped its receiver or the doer ended; it ends Ok
          only after pushing the final message) - not proved;
     (B2) in an application-level blocking receive: needs `covered` as a counting invariant over the whole pipeline
          (answers in flight + answers of commands in flight >= what the remaining protocol still waits for) - not proved;
     (B3) in the join of its sending thread with the wire boss->doer full: needs (B1)'s mirror facts plus "once the doer's
          receiving thread ended Ok nothing is left in the boss->doer pipeline" - not proved.
   Error replies are not fault steps (nfault counts cut / bad frame / kill / stdin only), so every piece above covers
   them; the runs after a bad frame are not covered. *)
From RJ Require Proofs.RemoteSessionBlocked Proofs.RemoteSessionPot Proofs.RemoteSessionLinkUp.

Theorem C09_remote_receiver_never_waits : forall c x s,
  RemoteSession.resp_ok c x -> RemoteSession.reach c x s ->
  RemoteSession.can_send c (RemoteSession.inc (RemoteSession.be s)) = true.
Proof. exact RemoteSessionPot.receiver_never_waits. Qed.

Theorem C09_remote_stuck_shape : forall c s,
  RemoteSession.final s = false -> RemoteSession.at_end s = false -> RemoteSessionBlocked.link_up s ->
  (forall s', ~ RemoteSession.step c s s') ->
  RemoteSessionBlocked.boss_blocked c s /\
  RemoteSessionBlocked.snd_blocked c (RemoteSession.be s) (RemoteSession.b2d s) /\
  RemoteSessionBlocked.rcv_blocked c (RemoteSession.be s) (RemoteSession.d2b s) /\
  RemoteSessionBlocked.doer_blocked c s /\
  RemoteSessionBlocked.snd_blocked c (RemoteSession.de s) (RemoteSession.d2b s) /\
  RemoteSessionBlocked.rcv_blocked c (RemoteSession.de s) (RemoteSession.b2d s).
Proof. exact RemoteSessionBlocked.stuck_shape. Qed.

Theorem C09_remote_no_stuck_faultfree_partial : forall c x s, RemoteSession.reach c x s ->
  RemoteSession.nfault (RemoteSession.ev s) = 0 ->
  RemoteSession.pc (RemoteSession.bm s) = RemoteSession.BFinal \/ RemoteSession.pc (RemoteSession.bm s) = RemoteSession.BJoinR ->
  RemoteSession.final s = true \/ exists s', RemoteSession.step c s s'.
Proof. exact RemoteSessionLinkUp.no_stuck_ff_final_wait. Qed.

(* the premises are met: a fault-free non-final state with the boss in its final wait; a protocol with resp_ok *)
Example C09_remote_example_final_wait : exists c x s,
  RemoteSession.reach c x s /\ RemoteSession.pc (RemoteSession.bm s) = RemoteSession.BFinal /\
  RemoteSession.nfault (RemoteSession.ev s) = 0 /\ RemoteSession.final s = false.
Proof.
  exists (RemoteSessionWitness.cfg 1000%N 0), RemoteSessionWitness2.sc_empty, RemoteSessionWitness2.s_wait.
  exact RemoteSessionWitness2.wait_state.
Qed.

Example C09_remote_example_resp_ok : exists c x,
  RemoteSession.resp_ok c x /\ RemoteSession.covered 0 (RemoteSession.sc_ops x) = true /\
  length (RemoteSession.sc_ops x) = 7.
Proof.
  exists (RemoteSessionWitness.cfg 1000%N 0), RemoteSessionWitness2.sc_cov.
  destruct RemoteSessionWitness2.resp_ok_cov as [A B]. split; [exact A|]. split; [exact B | reflexivity].
Qed.

Print Assumptions C09_remote_receiver_never_waits.
Print Assumptions C09_remote_stuck_shape.
Print Assumptions C09_remote_no_stuck_faultfree_partial.
