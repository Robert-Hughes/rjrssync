(* C07 - Exit status 0 means everything was applied; every failure is reported.  Statements only. *)
From RJ Require Import Base.Prelude Base.OrderedPlan Model.Settings Model.Core Model.Fs Model.Paths Model.Sync Model.SyncTop
  Proofs.ExecProofs Proofs.DryProofs Proofs.CrashProofs Proofs.CrashMain Proofs.ReportProofs Proofs.TouchedProofs Proofs.InstanceProofs Model.Async Proofs.AsyncProofs Proofs.MirrorProofs Proofs.KillEvents.
From RJ Require Import Model.SpecRun Proofs.SpecProofs.

(* sync() returns Ok (a real run, the root not skipped) only if EVERY step of the confirmed plan was carried
   out: every planned command sent, executed and answered without error, every source file fetched; the
   destination is exactly the result of executing them all; the statistics are those of that plan.  For
   every fault plan (failing commands, failing writes, failing reads, any notice lag, a dying doer). *)
Theorem C07_exit0_all_applied : forall now_z normalize chunker cfg S D ans bits ls ld ft,
  let r := sync_one now_z normalize chunker cfg S D ans bits ls ld ft in
  let pl := sync_plan now_z normalize chunker cfg S D ans bits ls ld in
  r_ok r = true -> cf_dry cfg = false -> r_root_skipped r = false ->
  exists acts pre,
    snd pl = pre ++ exec_steps chunker S acts /\ (pre = [] \/ pre = [DestCmd CCreateRootAncestors]) /\
    r_stats r = plan_stats acts /\
    r_dest r = exec_all (cf_fl cfg) D (dest_cmds (snd pl)) /\ all_ok (cf_fl cfg) D (dest_cmds (snd pl)) /\
    (exists t0, r_dest_trace r = t0 ++ dest_cmds (snd pl)) /\
    (exists s0, r_src_trace r = s0 ++ src_fetches (snd pl)) /\
    r_errs r = [] /\ r_src_failed r = false.
Proof. exact exit0_all_applied. Qed.

(* Every failure is reported, however late the failing operation sits: the error reply of a command that is
   reached and executed is in the final error list whatever precedes and follows it ... *)
Theorem C07_no_error_dropped : forall fl ft pre s rest r c e,
  executes ft (run_steps fl ft r pre) s = Some c ->
  snd (doer_exec fl (rs_d (run_steps fl ft r pre)) c) = Some e ->
  In e (rs_errs (run_steps fl ft r (pre ++ s :: rest))).
Proof. exact error_reaches_the_end. Qed.

(* ... and a non-empty error list or a failed source read makes sync() fail. *)
Theorem C07_failure_is_reported : forall now_z normalize chunker cfg S D ans bits ls ld ft,
  let r := sync_one now_z normalize chunker cfg S D ans bits ls ld ft in
  r_errs r <> [] \/ r_src_failed r = true -> r_ok r = false.
Proof. exact failure_is_reported. Qed.

(* The summary: the counters of the plan's statistics are the census of the commands that were carried
   out (files = completed file transfers).  Byte totals are the listed sizes (C11 ties them to the data). *)
Theorem C07_summary_is_census : forall chunker,
  (forall d, chunker d <> [] /\ concat (chunker d) = d) ->
  forall S a,
  (forall p mt sz r, In (p, (EFile mt sz, r)) (a_copy a) -> exists m d, fget S p = Some (NFile m d)) ->
  nobytes (plan_stats a) = census (dest_cmds (exec_steps chunker S a)).
Proof. exact plan_stats_is_census. Qed.

(* After ANY run - Ok, failed, or killed at any instant - every destination path is as it was, or as a
   command of the plan for that very path makes it, or a partly written file with the time of its last
   write; nothing else has been touched.  (Runs that went through a link: F6b.) *)
Theorem C07_only_planned_changes : forall now_z normalize chunker,
  (forall d, chunker d <> [] /\ concat (chunker d) = d) ->
  forall cfg S D ans bits ls ld ft,
  d_open D = None ->
  let steps := snd (sync_plan now_z normalize chunker cfg S D ans bits ls ld) in
  let T := Touched (cf_fl cfg) S (d_fs D) (cmd_of_plan steps) (file_of_plan steps) in
  (forall s, In s (sync_kill_states now_z normalize chunker cfg S D ans bits ls ld ft) -> no_through (d_events s) -> T s) /\
  (no_through (d_events (r_dest (sync_one now_z normalize chunker cfg S D ans bits ls ld ft))) ->
   T (r_dest (sync_one now_z normalize chunker cfg S D ans bits ls ld ft))).
Proof. exact only_planned_changes. Qed.

(* ... and for the executable sync with no premise at all about links (C02's general confinement theorem): *)
Theorem C07_only_planned_changes_unconditional : forall cfg S D a ans bits ex ft,
  unique_keys S -> wf_fs S -> unique_keys D -> wf_fs D ->
  let ls := list_fs now_far (excl_incl ex) normalize_unix S in
  let ld := list_fs now_far (excl_incl ex) normalize_unix D in
  let steps := snd (sync_plan now_far normalize_unix chunk_real cfg S (world D a []) ans bits ls ld) in
  let T := Touched (cf_fl cfg) S D (cmd_of_plan steps) (file_of_plan steps) in
  (forall s, In s (sync_kill_states now_far normalize_unix chunk_real cfg S (world D a []) ans bits ls ld ft) -> T s) /\
  T (r_dest (run_top cfg S D a ans bits ex ft)).
Proof. exact kill_states_touched_unconditional. Qed.

(* The asynchrony itself, as a two-process model (Model/Async.v): the boss streams commands and looks at
   replies now and then, the doer executes and answers in order, every interleaving is a path.  On EVERY
   path: Ok only after the doer has executed the whole plan without a single error reply; an error answered
   at ANY time - also after the boss has already sent its final marker - is never lost; and whenever the
   boss stops, the doer's world is the sequential execution of a prefix of the plan. *)
Theorem C07_async_ok_sound : forall exec d0 steps s,
  areach exec (ainit d0 steps) s -> a_boss s = BOk ->
  a_done s = dest_cmds steps /\ a_d s = run_all exec d0 (dest_cmds steps) /\
  errs_all exec d0 (dest_cmds steps) = [] /\ a_queue s = [].
Proof. exact async_ok_sound. Qed.

Theorem C07_async_no_error_lost : forall exec d0 steps s,
  areach exec (ainit d0 steps) s -> a_errs s <> [] -> a_boss s <> BOk.
Proof. exact async_no_error_lost. Qed.

Theorem C07_async_prefix : forall exec d0 steps s,
  areach exec (ainit d0 steps) s -> a_d s = run_all exec d0 (a_done s) /\
  (a_boss s <> BFail -> exists rest, dest_cmds steps = a_done s ++ rest).
Proof. exact async_prefix. Qed.

(* the two models of the destination side agree on successful runs: what the two-process model can end with Ok
   is exactly what the synchronous model (Model/Sync.run_steps, used by every other theorem) computes without faults *)
Theorem C07_async_ok_agrees_with_sync : forall fl D t0 s0 steps s,
  areach (doer_exec fl) (ainit D steps) s -> a_boss s = BOk ->
  let r := run_steps fl no_faults (mkR D t0 s0 [] false 0 0 None) steps in
  a_d s = rs_d r /\ rs_errs r = [] /\ rs_srcfail r = false.
Proof. exact async_ok_agrees_with_sync. Qed.

(* ... and on ALL runs the synchronous model covers the asynchronous one: whatever the two processes do, the doer's
   world is the one Model/Sync.run_steps computes under the fault plan "the doer dies after n commands" - so every
   theorem stated for all fault plans (C01-C05, C07, C08, C12) speaks about every interleaving of boss and doer. *)
Theorem C07_async_covered_by_sync : forall fl D t0 s0 steps s,
  (forall c, In c (dest_cmds steps) -> mutating c = true) ->
  areach (doer_exec fl) (ainit D steps) s ->
  a_d s = rs_d (run_steps fl (stop_plan (length (a_done s)) (S (length steps))) (mkR D t0 s0 [] false 0 0 None) steps).
Proof. exact async_covered_by_sync. Qed.

(* a late error: the only command fails after the boss has already sent the final marker and is waiting *)
Example C07_async_late_error :
  let d0 := world [([], NFolder)] AncOk [] in
  let c := CDeleteFile [["x"%char]] in
  exists s, areach (doer_exec Unix) (ainit d0 [DestCmd c]) s /\ a_boss s = BFail /\ a_errs s = [ENoEnt].
Proof.
  cbv zeta. eexists. split.
  - eapply ar_step. eapply ar_step. eapply ar_step. eapply ar_step. eapply ar_step. apply ar_refl.
    + apply st_boss_send.
    + apply st_boss_finish.
    + apply st_doer_cmd.
    + apply st_doer_done.
    + cbn. apply st_boss_sees_error_waiting.
  - split; reflexivity.
Qed.

(* Non-vacuity: a run whose LAST command fails (a write fault on the final chunk of the last file) is Ok
   in everything before it and still fails; the same run without the fault is Ok and its census matches. *)
Definition c07_S : fs := [ ([], NFolder); ([["a"%char]], NFile (TSet 10) ["x"%char]); ([["b"%char]], NFile (TSet 11) ["y"%char; "z"%char]) ].
Definition c07_D : fs := [ ([], NFolder); ([["c"%char]], NFile (TSet 5) ["o"%char]) ].
Definition c07_cfg := mkCfg false Unix (mkB BAct BAct BSkip BAct) BAct false.
Example C07_example :
  let ls := listing_top [] c07_S in let ld := listing_top [] c07_D in
  let bad := run_orders_w c07_cfg c07_S c07_D AncOk [1%N] [] [] ls ld no_faults in
  let good := run_orders_w c07_cfg c07_S c07_D AncOk [] [] [] ls ld no_faults in
  r_ok bad = false /\ r_errs bad = [EWrite] /\ r_ok good = true /\
  nobytes (r_stats good) = census (skipn 2 (r_dest_trace good)).
Proof. vm_compute. repeat split; reflexivity. Qed.

(* A SPEC WITH SEVERAL SYNCS (Model/SpecRun.v: execute_spec folds the syncs over a store of trees; a fresh doer
   context per sync; the first failing sync ends the run).  Exit status 0 exactly when EVERY sync of the spec was
   started and returned Ok ... *)
Theorem C07_spec_exit0_iff_all_ok : forall jobs st,
  sp_ok (run_spec jobs st) = true <->
  length (sp_runs (run_spec jobs st)) = length jobs /\ forallb r_ok (sp_runs (run_spec jobs st)) = true.
Proof. intros jobs st. exact (spec_ok_iff jobs st). Qed.
(* ... and status 12 exactly when some sync failed: it is the last one that was started, all before it returned Ok
   and none after it was started (a later success can never mask it). *)
Theorem C07_spec_failure_is_last : forall jobs st,
  forallb r_ok (removelast (sp_runs (run_spec jobs st))) = true /\
  length (sp_runs (run_spec jobs st)) <= length jobs /\
  (sp_ok (run_spec jobs st) = false <->
   exists r, last (sp_runs (run_spec jobs st)) r = r /\ r_ok r = false /\ sp_runs (run_spec jobs st) <> []).
Proof. intros jobs st. exact (spec_failure_is_last jobs st). Qed.
(* each started sync is the single-sync model on the trees as the syncs before it left them *)
Theorem C07_spec_runs_are_syncs : forall jobs st,
  sp_runs (run_spec jobs st) = map t_res (spec_trace jobs st) /\
  Forall (fun t => t_res t = run_job (t_job t) (t_store t)) (spec_trace jobs st) /\
  map t_job (spec_trace jobs st) = firstn (length (spec_trace jobs st)) jobs.
Proof. intros jobs st. exact (conj (runs_of_trace jobs st) (conj (trace_is_runs jobs st) (trace_jobs jobs st))). Qed.

Print Assumptions C07_exit0_all_applied.
Print Assumptions C07_no_error_dropped.
Print Assumptions C07_failure_is_reported.
Print Assumptions C07_summary_is_census.
Print Assumptions C07_only_planned_changes.
Print Assumptions C07_only_planned_changes_unconditional.
Print Assumptions C07_async_ok_sound.
Print Assumptions C07_async_no_error_lost.
Print Assumptions C07_async_prefix.
Print Assumptions C07_async_ok_agrees_with_sync.
Print Assumptions C07_async_covered_by_sync.
Print Assumptions C07_spec_exit0_iff_all_ok.
Print Assumptions C07_spec_failure_is_last.
Print Assumptions C07_spec_runs_are_syncs.

(* arbitrary command sequences against the doer (Model/DoerOps.v; the doer-ops unit driver compares the real doer thread with it) *)
From RJ Require Import Model.DoerOps Proofs.DoerOpsProofs Proofs.WfProofs.
Theorem C07_any_sequence_touches_only_named_paths : forall fl cs st p,
  Forall (fun c => cmd_path c <> Some p) cs -> fget (d_fs (fst (doer_run fl st cs))) p = fget (d_fs st) p.
Proof. exact doer_run_frame. Qed.
Theorem C07_any_sequence_keeps_the_tree_well_formed : forall fl cs st, wfu (d_fs st) -> wfu (d_fs (fst (doer_run fl st cs))).
Proof. exact doer_run_wfu. Qed.
Theorem C07_any_sequence_error_leaves_tree : forall fl cs st k c e,
  nth_error cs k = Some c -> nth_error (snd (doer_run fl st cs)) k = Some (Some e) -> e <> EWrite ->
  d_fs (fst (doer_exec fl (state_before fl st cs k) c)) = d_fs (state_before fl st cs k).
Proof. exact doer_run_errors. Qed.
Print Assumptions C07_any_sequence_touches_only_named_paths.
Print Assumptions C07_any_sequence_keeps_the_tree_well_formed.
Print Assumptions C07_any_sequence_error_leaves_tree.
