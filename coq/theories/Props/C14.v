(* C14 - Messages arrive exactly once, in order and intact, with bounded buffering.
   This file contains only statements, each closed by [exact], examples and the assumption audit.
   Message codec: Model/Bincode.v; channel: Model/Channel.v (one sender, one receiver, every interleaving).
   The encrypted TCP leg: the frame codec and the sender / receiver automata are Model/Frame.v of the frames
   cluster (C10, which owns the adversarial theorems and [C14_stream]); this file adds that every message the
   protocol can produce FITS the fixed buffers of that leg ([C14_legit_*], Model/WireLink.v), composes it with
   the stream theorem ([C14_link_delivers_*]) and checks the limits against the running code
   ([C14_frame_limits_match_code], [C14_chunk_frames_fit_code]; Gen/Facts_wire.v and Gen/Facts_chunks.v are
   regenerated from the real AsyncEncryptedComms on every run). *)
From RJ Require Import Base.Prelude Model.LEInt Model.Bincode Model.Channel Model.WireLink
  Proofs.LEIntProofs Proofs.BincodeProofs Proofs.ChannelProofs Proofs.WireLinkProofs.
From RJ Require Model.Frame Proofs.FrameProofs.
From RJ Require Gen.Facts_wire Gen.Facts_chunks.
Local Open Scope N_scope.

(* Every well-formed Command (integers in range, strings valid UTF-8, every SystemTime at or after
   the epoch with nanoseconds < 10^9) serializes, decodes back to itself from any stream position
   leaving exactly the rest, and its serialized_size - also the size the channel accounts - is the
   number of bytes written. *)
Theorem C14_codec_command : forall c rest, wf_command c = true ->
  exists b, encode_command c = Ok b /\ decode_command (b ++ rest) = Some (c, rest) /\
            serialized_size_command c = Ok (lenN b) /\ send_size_command c = Ok (lenN b).
Proof. exact codec_command. Qed.

Theorem C14_codec_response : forall x rest, wf_response x = true ->
  exists b, encode_response x = Ok b /\ decode_response (b ++ rest) = Some (x, rest) /\
            serialized_size_response x = Ok (lenN b) /\ send_size_response x = Ok (lenN b).
Proof. exact codec_response. Qed.

(* both directions of the link in one statement *)
Theorem C14_codec :
  (forall c rest, wf_command c = true ->
     exists b, encode_command c = Ok b /\ decode_command (b ++ rest) = Some (c, rest) /\
               serialized_size_command c = Ok (lenN b) /\ send_size_command c = Ok (lenN b)) /\
  (forall x rest, wf_response x = true ->
     exists b, encode_response x = Ok b /\ decode_response (b ++ rest) = Some (x, rest) /\
               serialized_size_response x = Ok (lenN b) /\ send_size_response x = Ok (lenN b)).
Proof. exact (conj codec_command codec_response). Qed.

(* interface for the frame codec *)
Theorem C14_decode_encode_command : forall c rest, wf_command c = true ->
  decode_command (enc_command c ++ rest) = Some (c, rest).
Proof. exact decode_encode_command. Qed.
Theorem C14_decode_encode_response : forall x rest, wf_response x = true ->
  decode_response (enc_response x ++ rest) = Some (x, rest).
Proof. exact decode_encode_response. Qed.

(* |encode m| = serialized_size m for every message that serializes at all *)
Theorem C14_size_command : forall c b, encode_command c = Ok b -> serialized_size_command c = Ok (lenN b).
Proof. exact size_is_length_command. Qed.
Theorem C14_size_response : forall x b, encode_response x = Ok b -> serialized_size_response x = Ok (lenN b).
Proof. exact size_is_length_response. Qed.

(* two different messages never have the same bytes *)
Theorem C14_encode_injective_command : forall c1 c2,
  wf_command c1 = true -> wf_command c2 = true -> enc_command c1 = enc_command c2 -> c1 = c2.
Proof. exact encode_command_injective. Qed.
Theorem C14_encode_injective_response : forall x1 x2,
  wf_response x1 = true -> wf_response x2 = true -> enc_response x1 = enc_response x2 -> x1 = x2.
Proof. exact encode_response_injective. Qed.

(* the size computation inside the channel send (`.expect("Error in serialized_size")`) does not
   panic on a well-formed message ... *)
Theorem C14_encode_total_command : forall c, wf_command c = true -> is_panic (send_size_command c) = false.
Proof. exact send_size_total_command. Qed.
Theorem C14_encode_total_response : forall x, wf_response x = true -> is_panic (send_size_response x) = false.
Proof. exact send_size_total_response. Qed.
(* ... it panics exactly for messages carrying a time before the epoch (defect F8, property C18) *)
Theorem C14_send_size_panics_iff_command : forall c, is_panic (send_size_command c) = negb (command_encodable c).
Proof. exact send_size_panics_iff_command. Qed.
Theorem C14_send_size_panics_iff_response : forall x, is_panic (send_size_response x) = negb (response_encodable x).
Proof. exact send_size_panics_iff_response. Qed.
Theorem C14_size_panics_before_epoch :
  is_panic (send_size_command (CCreateOrUpdateFile [] [] (Some t1960) false)) = true /\
  is_panic (send_size_response (REntry [] (EDFile t1960 0))) = true /\
  is_panic (send_size_response (RRootDetails (Some (EDFile t1960 0)) false [ascii_of_N 47])) = true.
Proof. exact size_panics_before_epoch. Qed.

(* A message is legitimate when it carries at most one full chunk of file data (4 MiB) and all its strings
   together (paths, link targets, root, filter patterns, error text) stay within 4 MiB - 1 KiB.  With its
   AEAD tag and its length header it fits the 8 MiB buffer of either thread of the link. *)
Theorem C14_legit_command_fits : forall c, legit_command c = true ->
  len_prefix + size_command c + tag_len <= Frame.buf_size.
Proof. exact legit_command_fits. Qed.
Theorem C14_legit_response_fits : forall r, legit_response r = true ->
  len_prefix + size_response r + tag_len <= Frame.buf_size.
Proof. exact legit_response_fits. Qed.

(* [link_class_of] (what the judge answers for one message) is what the sender of Model/Frame.v does with a
   plaintext of that size: framed, serialization error, or the panic of the tag that does not fit *)
Theorem C14_link_class_is_send_step : forall seal,
  (forall ctr m, Frame.blen (seal (Frame.nonce_of ctr) m) = Frame.blen m + tag_len) ->
  forall bump d ctr m, ctr mod 2 = Frame.lsb d -> ctr + 2 < Frame.u64_limit ->
  match link_class_of true (Frame.blen m) with
  | LDelivered => Frame.send_step seal bump d ctr m
                  = Ok (Frame.next_ctr bump ctr, Frame.frame_of (seal (Frame.nonce_of ctr) m))
  | LSerialize => exists e, Frame.send_step seal bump d ctr m = Err e
  | LTagPanic => exists s, Frame.send_step seal bump d ctr m = Panic s
  | LUnencodable => False
  end.
Proof. exact send_step_class. Qed.

Theorem C14_legit_command_delivered : forall c, wf_command c = true -> legit_command c = true ->
  link_class_command c = LDelivered.
Proof. exact legit_command_delivered. Qed.
Theorem C14_legit_response_delivered : forall r, wf_response r = true -> legit_response r = true ->
  link_class_response r = LDelivered.
Proof. exact legit_response_delivered. Qed.

(* The whole leg without an adversary, for every sequence of legitimate messages (fewer than 2^62, the
   final message of the direction - if any - last), every AEAD that opens what it sealed and appends 16
   bytes, every TCP segmentation: the sender never fails, the receiving automaton delivers exactly the
   plaintexts that were sent, in order, and each one deserializes to the message it came from. *)
Theorem C14_link_delivers_commands : forall seal open fin d,
  (forall n m, open n (seal n m) = Some m) ->
  (forall ctr m, Frame.blen (seal (Frame.nonce_of ctr) m) = Frame.blen m + tag_len) ->
  forall (cmds : list command) (segs : list (list ascii)),
  Forall (fun c => wf_command c = true /\ legit_command c = true) cmds ->
  Frame.lsb d + 2 * lenN cmds < Frame.u64_limit ->
  Frame.upto_final fin (map enc_command cmds) = map enc_command cmds ->
  exists ctr' frames,
    Frame.send_all seal true d (Frame.lsb d) (map enc_command cmds) = Ok (ctr', frames) /\
    (concat segs = concat frames ->
     Frame.decode_stream open deserializes_command fin true d segs = map enc_command cmds) /\
    Forall (fun c => decode_command (enc_command c) = Some (c, [])) cmds.
Proof. exact link_delivers_commands. Qed.

Theorem C14_link_delivers_responses : forall seal open fin d,
  (forall n m, open n (seal n m) = Some m) ->
  (forall ctr m, Frame.blen (seal (Frame.nonce_of ctr) m) = Frame.blen m + tag_len) ->
  forall (rs : list response) (segs : list (list ascii)),
  Forall (fun r => wf_response r = true /\ legit_response r = true) rs ->
  Frame.lsb d + 2 * lenN rs < Frame.u64_limit ->
  Frame.upto_final fin (map enc_response rs) = map enc_response rs ->
  exists ctr' frames,
    Frame.send_all seal true d (Frame.lsb d) (map enc_response rs) = Ok (ctr', frames) /\
    (concat segs = concat frames ->
     Frame.decode_stream open deserializes_response fin true d segs = map enc_response rs) /\
    Forall (fun r => decode_response (enc_response r) = Some (r, [])) rs.
Proof. exact link_delivers_responses. Qed.

(* Obligations against the running code.  The receiving thread of a real AsyncEncryptedComms accepts length
   fields up to exactly the model's buffer size; the largest payload a real pair of them delivered implies
   the same buffer on the sending side; the real sending thread appends 16 bytes after an 8-byte header;
   the top of the real chunk ladder is the model's [max_chunk]. *)
Theorem C14_frame_limits_match_code :
  Facts_wire.impl_wire_recv_max = Frame.buf_size /\ Facts_chunks.impl_frame_buf = Frame.buf_size /\
  Facts_wire.impl_wire_tag = tag_len /\ Facts_wire.impl_wire_len_prefix = len_prefix /\
  Facts_chunks.impl_max_chunk = max_chunk.
Proof. repeat split; reflexivity. Qed.

(* ... and, stated on the code's own numbers only: a CreateOrUpdateFile command with a full chunk of the
   real ladder and any path of up to 96 KiB (PATH_MAX is 4096 on Linux; 32767 UTF-16 units on Windows), with or
   without a modification time, and a FileContent response with a full chunk, are accepted by the real
   receiving thread and are within what a real pair of comms objects delivered. *)
Theorem C14_chunk_frames_fit_code : forall p d mt more,
  lenN d <= Facts_chunks.impl_max_chunk -> lenN p <= 98304 ->
  size_command (CCreateOrUpdateFile p d mt more) + Facts_wire.impl_wire_tag <= Facts_wire.impl_wire_recv_max /\
  Facts_wire.impl_wire_len_prefix + size_command (CCreateOrUpdateFile p d mt more) + Facts_wire.impl_wire_tag
    <= Facts_chunks.impl_frame_buf /\
  size_response (RFileContent d more) + Facts_wire.impl_wire_tag <= Facts_wire.impl_wire_recv_max /\
  Facts_wire.impl_wire_len_prefix + size_response (RFileContent d more) + Facts_wire.impl_wire_tag
    <= Facts_chunks.impl_frame_buf.
Proof.
  intros p d mt more Hd Hp.
  unfold Facts_chunks.impl_max_chunk, Facts_chunks.impl_frame_buf, Facts_wire.impl_wire_tag,
    Facts_wire.impl_wire_recv_max, Facts_wire.impl_wire_len_prefix in *.
  cbn [size_command size_response]. unfold size_buf. destruct mt; cbn [size_option]; lia.
Qed.

(* the step function the theorems (and the judge) use is the rule-by-rule relation of Model/Channel.v *)
Theorem C14_step_rules : forall (M : Type) (s s' : chan M), step s s' <-> astep s s'.
Proof. exact @step_astep. Qed.

(* exactly once, in order: what send() was given = what recv() returned ++ what is in transit *)
Theorem C14_fifo : forall (M : Type) cap (s : chan M), reach cap s ->
  c_handed s = c_delivered s ++ in_transit s.
Proof. exact @fifo. Qed.
Theorem C14_fifo_quiescent : forall (M : Type) cap (s : chan M), reach cap s -> quiescent s ->
  c_delivered s = c_handed s.
Proof. exact @fifo_quiescent. Qed.

(* the counter is the queued bytes + the sender's in-flight message + the receiver's *)
Theorem C14_account : forall (M : Type) cap (s : chan M), reach cap s ->
  c_usage s = qbytes (c_queue s) + s_inflight (c_spc s) + r_inflight (c_rpc s).
Proof. exact @account. Qed.
Theorem C14_drained : forall (M : Type) cap (s : chan M), reach cap s -> quiescent s -> c_usage s = 0.
Proof. exact @drained_zero. Qed.

(* neither `load - memory_usage` in the wait loop nor the fetch_sub ever underflows *)
Theorem C14_no_underflow : forall (M : Type) cap (s : chan M), reach cap s ->
  c_spc s <> SUnderflow /\ c_rpc s <> RUnderflow.
Proof. exact @no_underflow. Qed.
Theorem C14_wait_loop_sub_ok : forall (M : Type) cap (s : chan M) m sz, reach cap s ->
  c_spc s = SWaiting m sz -> sz <= c_usage s.
Proof. exact @wait_loop_sub_ok. Qed.
Theorem C14_fetch_sub_ok : forall (M : Type) cap (s : chan M) m sz, reach cap s ->
  c_rpc s = RPopped m sz -> sz <= c_usage s.
Proof. exact @fetch_sub_ok. Qed.
(* explicit premise for the upward direction: live bytes below 2^64 keep the counter below 2^64 *)
Theorem C14_no_overflow : forall (M : Type) cap (s : chan M), reach cap s ->
  qbytes (c_queue s) + s_inflight (c_spc s) + r_inflight (c_rpc s) < 18446744073709551616 ->
  c_usage s < 18446744073709551616.
Proof. exact @no_overflow. Qed.

(* a sender is held back only while more than the capacity is already queued *)
Theorem C14_admission : forall (M : Type) cap (s : chan M) m sz s', reach cap s ->
  chan_step s (OFetchAdd m sz) = Some s' ->
  c_usage s = others s /\
  (cap < others s -> c_spc s' = SWaiting m sz) /\
  (others s <= cap -> c_spc s' = SPush m sz).
Proof. exact @admission_entry. Qed.
Theorem C14_admission_loop : forall (M : Type) cap (s : chan M) m sz s', reach cap s ->
  c_spc s = SWaiting m sz -> chan_step s OLoad = Some s' ->
  c_usage s - sz = others s /\
  (cap < others s -> c_spc s' = SWaiting m sz) /\
  (others s <= cap -> c_spc s' = SPush m sz).
Proof. exact @admission_loop. Qed.

(* a single message larger than the capacity is still let through (capacity 0 included) *)
Theorem C14_oversize : forall (M : Type) cap (s : chan M) m sz s', reach cap s ->
  c_queue s = [] -> c_rpc s = RIdle ->
  chan_step s (OFetchAdd m sz) = Some s' -> c_spc s' = SPush m sz.
Proof. exact @oversize. Qed.

(* no deadlock while the receiver keeps receiving *)
Theorem C14_progress : forall (M : Type) cap (s : chan M) m sz, reach cap s ->
  c_spc s = SWaiting m sz -> cap < others s ->
  (exists s', chan_step s OPop = Some s') \/ (exists s', chan_step s OFetchSub = Some s').
Proof. exact @progress. Qed.
Theorem C14_progress_recv_decreases : forall (M : Type) cap (s : chan M) o s', reach cap s ->
  is_recv_op o = true -> chan_step s o = Some s' -> (rmeasure s' < rmeasure s)%nat.
Proof. exact @recv_step_decreases. Qed.
Theorem C14_progress_wait_keeps : forall (M : Type) (s : chan M) m sz s',
  c_spc s = SWaiting m sz -> chan_step s OLoad = Some s' -> rmeasure s' = rmeasure s.
Proof. exact @waiting_sender_keeps_measure. Qed.
Theorem C14_progress_admitted_at_zero : forall (M : Type) cap (s : chan M) m sz s', reach cap s ->
  c_spc s = SWaiting m sz -> rmeasure s = 0%nat -> chan_step s OLoad = Some s' -> c_spc s' = SPush m sz.
Proof. exact @measure_zero_admits. Qed.
Theorem C14_sender_never_stuck : forall (M : Type) cap (s : chan M), reach cap s ->
  match c_spc s with
  | SIdle => forall m sz, exists s', chan_step s (OFetchAdd m sz) = Some s'
  | SWaiting _ _ => exists s', chan_step s OLoad = Some s'
  | SPush _ _ => exists s', chan_step s OPush = Some s'
  | SUnderflow => False
  end.
Proof. exact @sender_never_stuck. Qed.

(* bounded buffering *)
Theorem C14_bounded : forall (M : Type) cap (s : chan M), reach cap s ->
  others s <= cap + c_maxsz s /\ c_usage s <= cap + 2 * c_maxsz s.
Proof. exact @bounded. Qed.

(* the executable step function of the judge only visits states the theorems speak about *)
Theorem C14_run_reach : forall (M : Type) cap (os : list (op M)) s, reach cap s -> reach cap (fst (chan_run s os)).
Proof. exact @chan_run_reach. Qed.

Example C14_example_codec :
  let c := CCreateOrUpdateFile (map ascii_of_N [97; 47; 98]) (map ascii_of_N [1; 2; 255]) (Some (mkTime 12 5)) true in
  wf_command c = true /\
  option_map (fun b => map N_of_ascii b) (match encode_command c with Ok b => Some b | _ => None end)
  = Some [4;0;0;0; 3;0;0;0;0;0;0;0; 97;47;98; 3;0;0;0;0;0;0;0; 1;2;255; 1; 12;0;0;0;0;0;0;0; 5;0;0;0; 1] /\
  send_size_command c = Ok 40.
Proof. vm_compute. repeat split. Qed.

(* capacity 5: a 9-byte message is admitted into the empty channel, the next one waits, spins while
   the first is still queued, is admitted after pop + fetch_sub, and everything drains to zero *)
Example C14_example_channel :
  let os := [OFetchAdd 1 9; OPush; OFetchAdd 2 3; OLoad; OPop; OLoad; OFetchSub; OLoad; OPush; OPop; OFetchSub] in
  let s := fst (chan_run (chan_init 5) os) in
  snd (chan_run (chan_init 5) os) = [true; true; true; true; true; true; true; true; true; true; true] /\
  c_spc (fst (chan_run (chan_init 5) [OFetchAdd 1 9; OPush; OFetchAdd 2 3; OLoad])) = SWaiting 2 3 /\
  c_delivered s = [1; 2] /\ c_handed s = [1; 2] /\ c_usage s = 0 /\ c_queue s = [] /\ reach 5 s.
Proof.
  repeat split; try (vm_compute; reflexivity).
  apply (chan_run_reach 5). apply reach_init.
Qed.

(* a full 4 MiB chunk under a 4096-byte path, with a modification time, is legitimate (size 4 MiB + 4130),
   and so is a symlink whose path and target are 4096 bytes each: the premises of the theorems above are met *)
Example C14_example_legit :
  let p := repeat (ascii_of_N 97) 4096 in
  legit_command (CCreateOrUpdateFile p [] (Some (mkTime 12 5)) true) = true /\
  wf_command (CCreateOrUpdateFile p [] (Some (mkTime 12 5)) true) = true /\
  (forall d, lenN d = max_chunk ->
     size_command (CCreateOrUpdateFile p d (Some (mkTime 12 5)) true) = 4198434) /\
  legit_command (CCreateSymlink p SKFile (STNormalized p)) = true /\
  legit_response (REntry p (EDSymlink SKUnknown (STNotNormalized p))) = true /\
  link_class_of true 8388584 = LDelivered /\ link_class_of true 8388585 = LTagPanic /\
  link_class_of true 8388601 = LSerialize /\
  (forall k ctr m, Frame.blen (Frame.toy_seal k (Frame.nonce_of ctr) m) = Frame.blen m + tag_len).
Proof.
  (* the 4096 bytes are walked twice, for their length and their well-formedness; the rest is arithmetic *)
  intros p.
  assert (Hp : lenN p = 4096) by (vm_compute; reflexivity).
  assert (Hs : str_ok p = true) by (vm_compute; reflexivity).
  clearbody p. unfold legit_command, legit_response.
  cbn [wf_command data_command var_command data_response var_response details_var target_len size_command size_option].
  unfold size_buf. rewrite Hs, !Hp.
  repeat split; try reflexivity.
  - intros d Hd. rewrite Hd. reflexivity.
  - exact toy_seal_expands.
Qed.

Print Assumptions C14_codec_command.
Print Assumptions C14_codec_response.
Print Assumptions C14_fifo.
Print Assumptions C14_account.
Print Assumptions C14_progress.
Print Assumptions C14_link_delivers_commands.
Print Assumptions C14_chunk_frames_fit_code.

(* The encrypted TCP channel as a COMPOSITION (Model/RemoteSession.v): channel -> sending thread -> socket ->
   receiving thread -> channel, per direction, under every interleaving of the seven threads of a boss <-> remote
   doer session, every channel capacity (0 included), every socket capacity, every fault plan (cut, bad frames,
   doer killed, stdin closed, Error replies) and every protocol the boss runs.  Proofs: Proofs/RemoteSessionFlow.v.
   (The numbering (S1)-(S6) of what is claimed of the session is introduced in Props/C09.v.)
     (S1) C14_remote_delivery: in EVERY reachable state, in each direction, (what the receiving application has
          taken from its channel ++ what is still queued in that channel) is a prefix, element for element, of what the
          sending application handed over: no loss in the middle, no duplication, no reordering, no alteration; a bad
          frame ends the stream at that point.  C14_remote_pipeline extends the prefix through the receiving thread's
          hands and the frames on the wire before the first bad one.
     (S2) C14_remote_complete : forall c x s, reach c x s -> final s = true -> nfault (ev s) = 0 -> (no Error planned) ->
            hgot (de s) = hsent (be s) /\ hgot (be s) ++ q (inc (be s)) = hsent (de s) /\
            dexec (dm s) = the identifiers of the commands in hsent (be s)
          is proved in part: as it stands it is false [C14_remote_complete_needs_final]; with the further premise that
          the boss took the final message as its final message it holds [C14_remote_complete_faultfree], over the nonce
          synchronisation invariant C10_remote_expected_nonce (receiver's counter = nonce of the next honest frame).
          The two comments headed "(S2)" further down say what is proved and what is open; besides there are the closed
          instance [C14_remote_example_complete] and the differential runs. *)
From RJ Require Model.RemoteSession Proofs.RemoteSessionBase Proofs.RemoteSessionFlow Proofs.RemoteSessionWitness.

Theorem C14_remote_delivery : forall c x s, RemoteSession.reach c x s ->
  (exists rest, RemoteSession.hsent (RemoteSession.be s) =
     (RemoteSession.hgot (RemoteSession.de s) ++ RemoteSession.q (RemoteSession.inc (RemoteSession.de s))) ++ rest) /\
  (exists rest, RemoteSession.hsent (RemoteSession.de s) =
     (RemoteSession.hgot (RemoteSession.be s) ++ RemoteSession.q (RemoteSession.inc (RemoteSession.be s))) ++ rest).
Proof. exact RemoteSessionFlow.remote_delivery. Qed.

Theorem C14_remote_pipeline : forall c x s, RemoteSession.reach c x s ->
  (RemoteSession.rcv_ended (RemoteSession.rcv_t (RemoteSession.de s)) = false ->
     exists rest, RemoteSession.hsent (RemoteSession.be s) =
       RemoteSession.hgot (RemoteSession.de s) ++ RemoteSession.q (RemoteSession.inc (RemoteSession.de s)) ++
       RemoteSessionFlow.rheld (RemoteSession.rcv_t (RemoteSession.de s)) ++ RemoteSessionFlow.wpre (RemoteSession.b2d s) ++ rest) /\
  (RemoteSession.rcv_ended (RemoteSession.rcv_t (RemoteSession.be s)) = false ->
     exists rest, RemoteSession.hsent (RemoteSession.de s) =
       RemoteSession.hgot (RemoteSession.be s) ++ RemoteSession.q (RemoteSession.inc (RemoteSession.be s)) ++
       RemoteSessionFlow.rheld (RemoteSession.rcv_t (RemoteSession.be s)) ++ RemoteSessionFlow.wpre (RemoteSession.d2b s) ++ rest).
Proof. exact RemoteSessionFlow.remote_pipeline. Qed.

(* the premise is met by non-trivial states: a fault-free run at capacity 0 over a one-frame socket delivers
   everything exactly once in both directions and the doer executes exactly the boss's commands in order;
   with a bad frame the stream ends there *)
Example C14_remote_example_complete : exists c x s,
  RemoteSession.reach c x s /\ RemoteSession.final s = true /\
  RemoteSession.hgot (RemoteSession.de s) = RemoteSession.hsent (RemoteSession.be s) /\
  RemoteSession.hgot (RemoteSession.be s) = RemoteSession.hsent (RemoteSession.de s) /\
  RemoteSession.dexec (RemoteSession.dm s) = [1; 2; 3]%N /\
  length (RemoteSession.hsent (RemoteSession.be s)) = 4%nat /\ length (RemoteSession.hsent (RemoteSession.de s)) = 4%nat.
Proof.
  exists (RemoteSessionWitness.cfg 0 0), RemoteSessionWitness.sc_small,
    (RemoteSession.run_to_end (RemoteSessionWitness.cfg 0 0) RemoteSessionWitness.eager_boss
       (RemoteSession.init RemoteSessionWitness.sc_small)).
  split; [apply RemoteSessionBase.run_sound | vm_compute; repeat split].
Qed.

Example C14_remote_example_bad_frame : exists c x s,
  RemoteSession.reach c x s /\ RemoteSession.final s = true /\
  RemoteSession.hgot (RemoteSession.de s) = [RemoteSession.MCmd 1 [11; 12]]%N /\
  RemoteSession.dexec (RemoteSession.dm s) = [1%N].
Proof.
  eexists _, _, _. split; [apply RemoteSessionBase.run_plan_sound|].
  destruct RemoteSessionWitness.bad_frame_ends_stream as (A & B & C & D). eauto.
Qed.

Print Assumptions C14_remote_delivery.
Print Assumptions C14_remote_pipeline.

(* (S2) completeness.  Proofs: Proofs/RemoteSessionAInv.v (structural invariants of every reachable state),
   Proofs/RemoteSessionComplete.v.
   The statement forall c x s, reach c x s -> final s = true -> nfault (ev s) = 0 ->
       hgot (de s) = hsent (be s) /\ hgot (be s) = hsent (de s) /\ dexec (dm s) = cmd_ids (hsent (be s))
   is FALSE of the faithful model for protocols in which the boss does not read all its answers
   [C14_remote_complete_needs_final: no fault step, boss exit 0, the Shutdown and an answer never delivered, the doer
   ended by its stdin watchdog]; the real boss reads every answer before Comms::shutdown unless the sync has already
   failed.  Proved, in EVERY reachable state and whatever the faults [C14_remote_complete_partial]:
   once the doer has taken the Shutdown and the boss has taken the final message as its final message, everything
   handed over was delivered exactly once, in order, in both directions, both receiving channels are empty, and the doer
   executed exactly the boss's commands in order.  Each half on its own: C14_remote_shutdown_complete,
   C14_remote_final_complete.
   What links the two premises in a run without fault steps - the boss took the final message => the doer took the
   Shutdown - is C14_remote_faultfree_shutdown_seen, further down (over the invariant of fault-free runs). *)
From RJ Require Proofs.RemoteSessionAInv Proofs.RemoteSessionComplete Proofs.RemoteSessionWitness2.

Theorem C14_remote_complete_partial : forall c x s, RemoteSession.reach c x s ->
  In RemoteSession.MShut (RemoteSession.hgot (RemoteSession.de s)) ->
  RemoteSession.bfin (RemoteSession.bm s) = true ->
  RemoteSession.hgot (RemoteSession.de s) = RemoteSession.hsent (RemoteSession.be s) /\
  RemoteSession.hgot (RemoteSession.be s) = RemoteSession.hsent (RemoteSession.de s) /\
  RemoteSession.dexec (RemoteSession.dm s) = RemoteSessionAInv.cmd_ids (RemoteSession.hsent (RemoteSession.be s)) /\
  RemoteSession.q (RemoteSession.inc (RemoteSession.de s)) = [] /\
  RemoteSession.q (RemoteSession.inc (RemoteSession.be s)) = [].
Proof. exact RemoteSessionComplete.remote_complete_partial. Qed.

Theorem C14_remote_shutdown_complete : forall c x s, RemoteSession.reach c x s ->
  In RemoteSession.MShut (RemoteSession.hgot (RemoteSession.de s)) ->
  RemoteSession.hgot (RemoteSession.de s) = RemoteSession.hsent (RemoteSession.be s) /\
  RemoteSession.dexec (RemoteSession.dm s) = RemoteSessionAInv.cmd_ids (RemoteSession.hsent (RemoteSession.be s)) /\
  RemoteSession.q (RemoteSession.inc (RemoteSession.de s)) = [].
Proof. exact RemoteSessionComplete.got_shutdown_complete. Qed.

Theorem C14_remote_final_complete : forall c x s, RemoteSession.reach c x s ->
  RemoteSession.bfin (RemoteSession.bm s) = true ->
  RemoteSession.hgot (RemoteSession.be s) = RemoteSession.hsent (RemoteSession.de s) /\
  RemoteSession.q (RemoteSession.inc (RemoteSession.be s)) = [].
Proof. exact RemoteSessionComplete.got_final_complete. Qed.

Theorem C14_remote_complete_needs_final : exists c x s,
  RemoteSession.reach c x s /\ RemoteSession.final s = true /\ RemoteSession.nfault (RemoteSession.ev s) = 0%nat /\
  Forall (fun b => b = false) (RemoteSession.sc_eplan x) /\
  RemoteSession.bexit (RemoteSession.bm s) = 0%N /\ RemoteSession.bfin (RemoteSession.bm s) = false /\
  RemoteSession.dstat (RemoteSession.ev s) = Some 65%N /\
  RemoteSession.hsent (RemoteSession.be s) = [RemoteSession.MCmd 1 [11; 12]; RemoteSession.MShut]%N /\
  RemoteSession.hgot (RemoteSession.de s) = [RemoteSession.MCmd 1 [11; 12]]%N /\
  RemoteSession.hsent (RemoteSession.de s) = [RemoteSession.MResp 11; RemoteSession.MResp 12]%N /\
  RemoteSession.hgot (RemoteSession.be s) = [RemoteSession.MResp 11]%N.
Proof. exact RemoteSessionWitness2.complete_needs_final. Qed.

(* the premises of C14_remote_complete_partial are met by the final state of a complete fault-free session *)
Example C14_remote_example_premises : exists c x s,
  RemoteSession.reach c x s /\ RemoteSession.final s = true /\
  In RemoteSession.MShut (RemoteSession.hgot (RemoteSession.de s)) /\
  RemoteSession.bfin (RemoteSession.bm s) = true /\ RemoteSession.nfault (RemoteSession.ev s) = 0%nat.
Proof.
  exists (RemoteSessionWitness.cfg 0 0), RemoteSessionWitness2.sc_cov, (RemoteSessionLog.base RemoteSessionWitness2.l_cov).
  destruct RemoteSessionWitness2.log_of_a_complete_session as (A & B & _ & _ & _ & _ & C & D & E & _).
  split; [apply RemoteSessionNonce.lreach_base; exact A|]. split; [exact B|]. split; [exact D|]. split; [exact C | exact E].
Qed.

Print Assumptions C14_remote_complete_partial.
Print Assumptions C14_remote_shutdown_complete.
Print Assumptions C14_remote_final_complete.
Print Assumptions C14_remote_complete_needs_final.

(* (S2) for runs without fault steps.  Proofs/RemoteSessionFaultFree.v: invariant FFA of every reachable state with
   nfault = 0 - the connection is not cut, every frame boss->doer on the wire is good, WHILE THE BOSS STILL HOLDS
   ITS SOCKET the doer's sending thread does not end with Err (k_snd) and its receiving thread does so only after the
   doer's main thread dropped its receiver (k_rcv; uses C10_remote_expected_nonce),
   the doer's receiving thread ends Ok only after pushing the Shutdown, and a doer that left its message loop without
   having seen the Shutdown did so after the boss had given up waiting for the final message.
     C14_remote_faultfree_shutdown_seen : fault-free, the boss took the final message as its final message
                                          => the doer took the Shutdown.
     C14_remote_complete_faultfree      : fault-free, the boss took the final message as its final message
                                          => everything handed over was delivered exactly once, in order, in both
                                          directions, both receiving channels are empty, the doer executed exactly the
                                          boss's commands in order.  (In every reachable state - final or not.)
   The premise "bfin = true" is observable: it is false exactly when Comms::shutdown logs "Unexpected response as final
   message".  Open: its derivation from a premise on the op list.  RemoteSessionFaultFree.reads_all_answers is
   that decidable premise (every answer a command produces is received by a blocking receive before the final wait;
   polls anywhere, not counted on to drain anything; C14_remote_complete_needs_final's protocol violates it, the
   protocols of the real boss satisfy it when each poll that found an answer is rendered as a receive - design.d/C14.md);
   "fault-free /\ final /\ reads_all_answers ops => bfin" is NOT proved (needs the boss-side mirror of FFA, the
   accounting |answers taken| >= |answers of the commands handed over|, and "a fault-free run does not fail"). *)
From RJ Require Proofs.RemoteSessionFaultFree.

Theorem C14_remote_faultfree_shutdown_seen : forall c x s, RemoteSession.reach c x s ->
  RemoteSession.nfault (RemoteSession.ev s) = 0%nat -> RemoteSession.bfin (RemoteSession.bm s) = true ->
  In RemoteSession.MShut (RemoteSession.hgot (RemoteSession.de s)).
Proof. exact RemoteSessionFaultFree.faultfree_final_taken. Qed.

Theorem C14_remote_complete_faultfree : forall c x s, RemoteSession.reach c x s ->
  RemoteSession.nfault (RemoteSession.ev s) = 0%nat -> RemoteSession.bfin (RemoteSession.bm s) = true ->
  RemoteSession.hgot (RemoteSession.de s) = RemoteSession.hsent (RemoteSession.be s) /\
  RemoteSession.hgot (RemoteSession.be s) = RemoteSession.hsent (RemoteSession.de s) /\
  RemoteSession.dexec (RemoteSession.dm s) = RemoteSessionAInv.cmd_ids (RemoteSession.hsent (RemoteSession.be s)) /\
  RemoteSession.q (RemoteSession.inc (RemoteSession.de s)) = [] /\
  RemoteSession.q (RemoteSession.inc (RemoteSession.be s)) = [].
Proof. exact RemoteSessionFaultFree.remote_complete_faultfree_bfin. Qed.

(* the premises are met by the final state of a complete session whose protocol satisfies reads_all_answers;
   the protocol of C14_remote_complete_needs_final does not satisfy it *)
Example C14_remote_example_faultfree : exists c x s,
  RemoteSession.reach c x s /\ RemoteSession.final s = true /\ RemoteSession.nfault (RemoteSession.ev s) = 0%nat /\
  RemoteSession.bfin (RemoteSession.bm s) = true /\
  RemoteSessionFaultFree.reads_all_answers (RemoteSession.sc_ops x) = true /\
  RemoteSessionFaultFree.reads_all_answers (RemoteSession.sc_ops RemoteSessionWitness2.sc_noread) = false.
Proof.
  exists (RemoteSessionWitness.cfg 0 0), RemoteSessionWitness2.sc_cov, (RemoteSessionLog.base RemoteSessionWitness2.l_cov).
  destruct RemoteSessionWitness2.log_of_a_complete_session as (A & B & _ & _ & _ & _ & C & D & E & _).
  split; [apply RemoteSessionNonce.lreach_base; exact A|]. split; [exact B|]. split; [exact E|]. split; [exact C|].
  split; reflexivity.
Qed.

Print Assumptions C14_remote_faultfree_shutdown_seen.
Print Assumptions C14_remote_complete_faultfree.
