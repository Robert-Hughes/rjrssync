(* C04 - Repeating a successful sync does nothing.  Statements only. *)
From RJ Require Import Base.Prelude Base.OrderedPlan Model.Settings Model.Core Model.Fs Model.Paths Model.Sync
  Spec.PlanSpec Spec.Mirror Proofs.ExecProofs Proofs.PathsProofs Proofs.MirrorProofs Proofs.IdemProofs Proofs.IdemMain Proofs.InstanceProofs Proofs.RepairMain.
From RJ Require Import Model.SyncTop.
From RJ Require Model.Walker Proofs.WalkBridge Proofs.WalkedSync.
From RJ Require Import Model.SpecRun Proofs.SpecProofs.

(* If a sync returns Ok without skips (and it was no dry run and nothing went through a link), then
   running the same sync again on what it left behind - with any answers, interleaving, listing order
   of the new destination and fault plan - returns Ok, leaves the destination doer's whole state as it
   is, sends no create / update / delete, fetches no content, asks nothing and reports "Nothing to
   do".  (files-same-time = skip, the default.) *)
Theorem C04_idempotent : forall now_z incl normalize chunker,
  (forall d, chunker d <> [] /\ concat (chunker d) = d) ->
  forall dest_fl cfg S D ans bits ls ld ft ans2 bits2 ld2 ft2,
  valid_listing now_z incl normalize S ls -> valid_listing now_z incl normalize (d_fs D) ld ->
  wf_fs S -> wf_fs (d_fs D) -> src_times_set S -> links_roundtrip normalize dest_fl S -> d_open D = None ->
  let r := sync_one now_z normalize chunker cfg S D ans bits ls ld ft in
  r_ok r = true -> r_skipped r = [] -> r_root_skipped r = false -> cf_dry cfg = false ->
  no_through (d_events (r_dest r)) -> cf_fl cfg = dest_fl ->
  b_same (cf_b cfg) = BSkip ->
  valid_listing now_z incl normalize (d_fs (r_dest r)) ld2 ->
  let r2 := sync_one now_z normalize chunker cfg S (r_dest r) ans2 bits2 ls ld2 ft2 in
  r_ok r2 = true /\ r_dest r2 = r_dest r /\ filter mutating (r_dest_trace r2) = [] /\
  (forall p, ~ In (CGetFileContent p) (r_src_trace r2)) /\ r_prompts r2 = [] /\ stats_nothing (r_stats r2) = true.
Proof. exact sync_twice. Qed.

(* The closed statement for the executable model: nothing is assumed about the second run's listing - the
   tree a run leaves behind is well-formed (Proofs/WfProofs.v), so its sorted listing is a valid listing. *)
Theorem C04_idempotent_executable : forall cfg S D a ans bits ex ft ans2 bits2 ft2,
  unique_keys S -> wf_fs S -> unique_keys D -> wf_fs D -> src_times_set S -> links_utf8 S ->
  let r := run_top cfg S D a ans bits ex ft in
  r_ok r = true -> r_skipped r = [] -> r_root_skipped r = false -> cf_dry cfg = false -> cf_fl cfg = Unix ->
  b_same (cf_b cfg) = BSkip ->
  let r2 := run_top cfg S (d_fs (r_dest r)) (d_anc (r_dest r)) ans2 bits2 ex ft2 in
  r_ok r2 = true /\ d_fs (r_dest r2) = d_fs (r_dest r) /\ filter mutating (r_dest_trace r2) = [] /\
  (forall p, ~ In (CGetFileContent p) (r_src_trace r2)) /\ r_prompts r2 = [] /\ stats_nothing (r_stats r2) = true.
Proof. exact run_top_twice. Qed.

(* ... and with every listing delivered by an arbitrary execution of the directory walk (C17, Proofs/WalkBridge.v),
   the "nothing went through a link" premise discharged by C02's theorem for every run, and the second destination
   listing walked over the tree the first run left (which is well-formed: Proofs/WfProofs.v). *)
Theorem C04_idempotent_walked : forall now_z incl normalize chunker,
  (forall d, chunker d <> [] /\ concat (chunker d) = d) ->
  forall dest_fl cfg S D ans bits ls ld ft ans2 bits2 ld2 ft2,
  wf_fs S -> src_times_set S -> links_roundtrip normalize dest_fl S ->
  wf_fs (d_fs D) -> unique_keys (d_fs D) -> d_open D = None -> no_through (d_events D) ->
  WalkedSync.walked now_z incl normalize S ls -> WalkedSync.walked now_z incl normalize (d_fs D) ld ->
  let r := sync_one now_z normalize chunker cfg S D ans bits ls ld ft in
  r_ok r = true -> r_skipped r = [] -> r_root_skipped r = false -> cf_dry cfg = false -> cf_fl cfg = dest_fl ->
  b_same (cf_b cfg) = BSkip ->
  WalkedSync.walked now_z incl normalize (d_fs (r_dest r)) ld2 ->
  let r2 := sync_one now_z normalize chunker cfg S (r_dest r) ans2 bits2 ls ld2 ft2 in
  r_ok r2 = true /\ r_dest r2 = r_dest r /\ filter mutating (r_dest_trace r2) = [] /\
  (forall p, ~ In (CGetFileContent p) (r_src_trace r2)) /\ r_prompts r2 = [] /\ stats_nothing (r_stats r2) = true.
Proof. exact WalkedSync.walked_sync_twice. Qed.

(* A SPEC WITH SEVERAL SYNCS run a second time does nothing (Model/SpecRun.v, Proofs/SpecProofs.v): if the first run
   exited 0, every sync of it ran without skips (no dry run, Unix destination, same-time files skipped), each source had
   set times and well-formed link texts when it was read, and no sync writes to the destination or the source of an
   EARLIER sync of the spec (a destination may be the source of a later one: A -> B, then B -> C) - then, run again on the
   trees the first run left, every sync returns Ok, sends no mutating command, fetches no content, asks nothing and
   reports "Nothing to do"; the status is 0 and every tree is as it was. *)
Theorem C04_spec_twice : forall jobs st,
  store_ok st ->
  sp_ok (run_spec jobs st) = true ->
  Forall (fun t => let j := t_job t in let S := sget (t_store t) (j_src j) in
            src_times_set S /\ links_utf8 S /\ j_src j <> j_dst j /\
            r_skipped (t_res t) = [] /\ r_root_skipped (t_res t) = false /\
            cf_dry (j_cfg j) = false /\ cf_fl (j_cfg j) = Unix /\ b_same (cf_b (j_cfg j)) = BSkip) (spec_trace jobs st) ->
  (forall pre t post, spec_trace jobs st = pre ++ t :: post ->
     forall t', In t' post -> j_dst (t_job t') <> j_dst (t_job t) /\ j_dst (t_job t') <> j_src (t_job t)) ->
  let F := sp_store (run_spec jobs st) in
  sp_ok (run_spec jobs F) = true /\ (forall i, sget (sp_store (run_spec jobs F)) i = sget F i) /\
  length (sp_runs (run_spec jobs F)) = length jobs /\ Forall quiet (sp_runs (run_spec jobs F)).
Proof. exact spec_twice. Qed.

(* The two halves, usable on their own: a mirrored destination plans nothing ... *)
Theorem C04_mirror_plans_nothing : forall now_z incl normalize diff fl S D D' ls ld',
  mirror now_z incl normalize diff fl S D D' -> wf_fs S -> wf_fs D -> fget S [] <> None ->
  valid_listing now_z incl normalize S ls -> valid_listing now_z incl normalize D' ld' ->
  plan_spec diff true (side_listing now_z normalize S ls) (side_listing now_z normalize D' ld') = mkActions [] [].
Proof. intros now_z incl normalize. exact (in_sync_plan_empty now_z incl normalize (fun d => [d])). Qed.

(* ... and whatever rjrssync writes compares equal when it is read back: link text ... *)
Theorem C04_link_text_reads_back : forall t, lossy t = t ->
  normalize_unix (denormalize Unix (normalize_unix t)) = normalize_unix t.
Proof. exact normalize_unix_idem. Qed.

(* Known finding F7: the full statement (for every link text) is FALSE of the faithful model: an
   ill-formed text is carried lossily and normalises differently when read back, so such a link is
   deleted and re-created by every run.  C04_idempotent above is the statement outside that class
   (links_roundtrip holds for all well-formed UTF-8 source link texts: InstanceProofs.links_utf8_roundtrip). *)
Theorem C04_refuted_for_ill_formed_link_text :
  exists t, normalize_unix (denormalize Unix (normalize_unix t)) <> normalize_unix t.
Proof. exact link_text_roundtrip_refuted. Qed.

(* ... and file times: the time set with the last chunk is the time listed afterwards. *)
Theorem C04_time_reads_back : forall now_z normalize st p t,
  exists d, fget (d_fs (stamp_file st p t)) p = Some (NFile (TSet t) d) /\
            entry_of now_z normalize (NFile (TSet t) d) = EFile t (N.of_nat (length d)).
Proof.
  intros now_z normalize st p t. unfold stamp_file. cbn [d_fs with_fs].
  eexists. split; [apply Proofs.FsProofs.fget_fset_eq|reflexivity].
Qed.

Print Assumptions C04_idempotent.
Print Assumptions C04_idempotent_executable.
Print Assumptions C04_mirror_plans_nothing.
Print Assumptions C04_link_text_reads_back.
Print Assumptions C04_idempotent_walked.
Print Assumptions C04_spec_twice.
