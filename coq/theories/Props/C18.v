(* C18 - No input makes rjrssync crash.

   "For every tree content (any names, lengths, timestamps including pre-1970 and far-future ones,
    special files), every argument vector and every spec-file text, rjrssync ends with one of its
    documented exit statuses (0, 2 for usage errors, 10, 11, 12, 18, 19) and, when it fails, an error
    message - never a panic, an abort or a signal."

   What is PROVED here is the absence of a panic at the panic sites of the anchors that an executable
   model of this code can express, for ALL inputs of that site (no bound on plan size, file sizes,
   chunk lists, value sequences, timestamps):
     1. the progress accounting of the boss with its three debug assertions   (Model/Progress.v)
     2. the file-size histogram: bucket index and Display                      (Model/Histogram.v)
     3. entry metadata -> message -> `serialized_size(..).expect(..)`          (Model/Meta.v, Model/Bincode.v)
     4. the exit status literals of the source text                            (Gen/Facts_exits.v)
   Everything else of the property (clap, yaml-rust, regex, indicatif, env_logger, the operating
   system) is covered by the end-to-end runs of tools/props/c18.py - tests, not theorems.

   This file contains only statements, each closed by [exact], and their assumption audit. *)
From RJ Require Import Base.Prelude Model.Chunk Model.Bincode Model.Progress Model.Histogram Model.Meta
  Proofs.ChunkProofs Proofs.ProgressProofs Proofs.HistMetaProofs Proofs.C18Facts
  Gen.Facts_progress Gen.Facts_exits.
From Coq Require Import String.
Local Open Scope N_scope.

(* 1. Progress accounting.

   [boss_run a detailed dry dels copies answers]: Progress::new on the plan (to_delete, to_copy), then
   every call that sync_impl / delete_dest_entry / copy_entry / copy_file make into the Progress object,
   in their order; [answers] are the replies of the source doer to the GetFileContent commands (chunk
   lengths with more_to_follow), ARBITRARY except for the premise [tail_nonempty]: only the first chunk
   of a reply may be empty.  The boss's own size checks are part of the model, so replies that do not
   add up to the listed size are covered (they end in the "size has changed" error, not in a panic).
   Premises: the plan has fewer than 2^32 entries per list (the u32 counters) and sizes are u64.
   [a] = Saturating is the code as it is (byte and work totals use saturating_add). *)

(* No panic at all: not in Progress::new, not at any marker, not at all_work_sent, no overflow. *)
Theorem C18_progress_no_panic : forall detailed dry dels copies answers,
  lenN dels < 4294967296 -> lenN copies < 4294967296 ->
  Forall entry_fits copies -> Forall tail_nonempty answers ->
  is_panic (boss_run Saturating detailed dry dels copies answers) = false.
Proof. exact progress_no_panic. Qed.

(* The two marker assertions hold after EVERY prefix of the calls (so also wherever an early return -
   a failed send, an error reported by the destination - cuts the sequence short):
   sent.delete <= total.delete and sent.copy <= total.copy, and the prefix itself ran without a panic. *)
Theorem C18_progress_assertions_hold : forall detailed dry dels copies answers,
  lenN dels < 4294967296 -> lenN copies < 4294967296 ->
  Forall entry_fits copies -> Forall tail_nonempty answers ->
  exists s0, progress_new Saturating detailed dels copies = Ok s0 /\
  forall pre post, fst (boss_calls dry dels copies answers) = pre ++ post ->
  exists s ms, exec_calls Saturating s0 pre = Ok (s, ms) /\
    ps_total s = ps_total s0 /\
    pv_delete (ps_sent s) <= pv_delete (ps_total s) /\ pv_copy (ps_sent s) <= pv_copy (ps_total s).
Proof. exact progress_prefix_invariant. Qed.

(* When the boss gets to all_work_sent (every file arrived with its listed size): total = sent. *)
Theorem C18_progress_all_sent : forall detailed dry dels copies answers,
  lenN dels < 4294967296 -> lenN copies < 4294967296 ->
  Forall entry_fits copies -> Forall tail_nonempty answers ->
  is_ok (snd (boss_calls dry dels copies answers)) = true ->
  exists s0 body s ms m,
    progress_new Saturating detailed dels copies = Ok s0 /\
    fst (boss_calls dry dels copies answers) = body ++ [KAllSent] /\
    exec_calls Saturating s0 body = Ok (s, ms) /\
    ps_total s = ps_sent s /\
    exec_call Saturating s KAllSent = Ok (s, Some m) /\ pm_phase m = PDone.
Proof. exact progress_all_sent. Qed.

(* The real reader (Model/Chunk.v read_chunks = handle_get_file_contents, for every file content and
   every short-read schedule) satisfies the premise, and a file read at its listed size is accepted. *)
Theorem C18_real_reader_satisfies_premise : forall (file : list ascii) (sched : list N) cs,
  read_chunks file sched = Some cs ->
  tail_nonempty (answer_of cs) /\ snd (file_calls (lenN file) 0 (answer_of cs)) = Ok tt.
Proof. exact reader_file_accepted. Qed.

(* Why the premise is needed: an EMPTY chunk after a complete file counts the file twice.  The real
   boss does panic on this reply (replayed through a scripted source doer by the check); the real
   doer cannot produce it (previous theorem), so no input of the property reaches it. *)
Theorem C18_trailing_empty_chunk_refuted :
  Forall entry_fits [EDFile t0 5] /\ ~ tail_nonempty [(5, true); (0, false)] /\
  boss_run Saturating false false [] [EDFile t0 5] [[(5, true); (0, false)]] = Panic e_assert_total.
Proof. exact trailing_empty_chunk_refuted. Qed.
Theorem C18_trailing_empty_chunk_marker_refuted : usual_constants ->
  boss_run Saturating true false [] [EDFile t0 10] [[(10, true); (0, true); (0, false)]] = Panic e_assert_copy.
Proof. exact trailing_empty_chunk_marker_refuted. Qed.

(* The byte totals of the statistics (saturating after the repair): never a panic. *)
Theorem C18_byte_totals_no_panic : forall sizes, Forall (fun x => x <= u64_max) sizes ->
  stats_total Saturating 0 sizes = Ok (N.min u64_max (fold_right N.add 0 sizes)).
Proof. exact stats_total_no_panic. Qed.

(* F12: before that repair (`+=` with overflow checks) three sparse files of 2^63 - 1 bytes panic. *)
Theorem C18_unfixed_totals_refuted :
  let big := EDFile t0 9223372036854775807 in
  Forall entry_fits [big; big; big] /\
  progress_new Checked false [] [big; big; big] = Panic e_add_overflow /\
  boss_run Checked false true [] [big; big; big] [] = Panic e_add_overflow /\
  stats_total Checked 0 [9223372036854775807; 9223372036854775807; 9223372036854775807] = Panic e_add_overflow /\
  (exists ms, boss_run Saturating false true [] [big; big; big] [] = Ok ms) /\
  stats_total Saturating 0 [9223372036854775807; 9223372036854775807; 9223372036854775807] = Ok u64_max.
Proof. exact unfixed_totals_refuted. Qed.

(* The model's constants are the ones the running code reports (so every theorem above is re-checked
   for whatever values the code has); [usual_constants] says they are the 1 MiB of today - only the two
   computed illustrations that mention it depend on that. *)
Theorem C18_progress_constants_match_code :
  min_file_size = impl_min_file_size /\ delete_work = impl_delete_work /\ marker_threshold = impl_marker_threshold.
Proof. exact progress_constants_match_code. Qed.

(* 2. Histogram.  For EVERY bucket index (whatever `(val as f64).log10() as usize` evaluates to) the
   index is within bounds after the while loop; for every index function and every sequence of fewer
   than 2^32 - 1 values no add panics; Display never panics and divides by a positive maximum. *)
Theorem C18_hist_add_in_bounds : forall h b, hsum h + 1 < 4294967296 ->
  exists h', hist_add_at h b = Ok h' /\ b < lenN h' /\ lenN h' = N.max (lenN h) (b + 1) /\ hsum h' = hsum h + 1.
Proof. exact hist_add_at_ok. Qed.

Theorem C18_hist_adds_no_panic : forall (bucket_of : N -> N) vals h, hsum h + lenN vals < 4294967296 ->
  exists h', hist_adds bucket_of h vals = Ok h' /\ hsum h' = hsum h + lenN vals /\ (vals <> [] -> h' <> []).
Proof. exact hist_adds_ok. Qed.

Theorem C18_hist_display_total : forall h, exists lines, hist_display h = Ok lines.
Proof. exact hist_display_total. Qed.

Theorem C18_hist_display_max_positive : forall (bucket_of : N -> N) vals h,
  lenN vals < 4294967296 -> hist_adds bucket_of [] vals = Ok h -> h <> [] ->
  exists m, max_opt h = Some m /\ m = list_max h /\ 0 < m.
Proof. exact hist_display_max_positive. Qed.

(* the ideal index of a u64 is at most 19: the vector never has more than 20 buckets *)
Theorem C18_hist_bucket_bound : forall v, v <= u64_max -> bucket_ideal v <= 19.
Proof. exact bucket_ideal_u64. Qed.

(* 3. Entry metadata.  Whatever lstat says about a root or a listed entry (any type, any time, any
   size): what the doer then sends - the Entry / RootDetails message, or the Error message - has a
   computable serialized size, so the expect() of memory_bound_channel.rs cannot fire; and neither can
   it for any command whose time is the time of a listed entry (CreateOrUpdateFile). *)
Theorem C18_meta_ok_encodable : forall m d, entry_of_meta true m = Ok d -> details_encodable d = true.
Proof. exact meta_ok_encodable. Qed.

Theorem C18_listed_entry_never_panics_send : forall path m, is_panic (send_listed true path m) = false.
Proof. exact send_listed_never_panics. Qed.

Theorem C18_root_never_panics_send : forall m diff sep, is_panic (send_root true m diff sep) = false.
Proof. exact send_root_never_panics. Qed.

Theorem C18_commands_from_listed_never_panic : forall listed c,
  Forall (fun d => exists m, entry_of_meta true m = Ok d) listed ->
  cmd_from_listed listed c -> is_panic (send_size_command c) = false.
Proof. exact command_from_listed_never_panics. Qed.

(* F8: the decision before the repair lets a file dated 1960 through, and sending it panics. *)
Theorem C18_pre_epoch_unfixed_refuted :
  let m := mkMeta FTFile (Some (mkTime (-315619200) 0)) 3 None in
  entry_of_meta false m = Ok (EDFile (mkTime (-315619200) 0) 3) /\
  is_panic (send_listed false [] m) = true /\
  is_panic (send_root false m false (wlit "/"%string)) = true /\
  entry_of_meta true m = Err e_pre_epoch /\
  is_panic (send_listed true [] m) = false.
Proof. exact pre_epoch_unfixed_refuted. Qed.

(* 4. Exit statuses in the source text (finite facts about the generated list). *)
Theorem C18_exit_codes_boss_documented :
  impl_exit_nonliteral = 0 /\ forall c, In c impl_exit_codes_boss -> In c [0; 2; 10; 11; 12; 18; 19].
Proof. exact boss_exits_documented. Qed.

Theorem C18_exit_codes_doer_classified :
  forall c, In c impl_exit_codes_doer -> In c [0; 2; 10; 11; 12; 18; 19] \/ In c [20; 22; 23; 24; 25; 321].
Proof. exact doer_exits_classified. Qed.

(* F10 (known): a process started with --doer ends with statuses the documentation does not list;
   `std::process::exit(321)` is reported by the OS as 65. *)
Theorem C18_doer_status_refuted : forall c, In c [20; 22; 23; 24; 25; 321] -> ~ In c [0; 2; 10; 11; 12; 18; 19].
Proof. exact doer_internal_undocumented. Qed.
Theorem C18_doer_os_status : map os_status [20; 22; 23; 24; 25; 321] = [20; 22; 23; 24; 25; 65].
Proof. exact doer_internal_os_status. Qed.
Theorem C18_exits_outside_known : forall c, In c (impl_exit_codes_boss ++ impl_exit_codes_doer) ->
  ~ In c [20; 22; 23; 24; 25; 321] -> In c [0; 2; 10; 11; 12; 18; 19].
Proof. exact exits_outside_known. Qed.

(* Non-vacuity: the premises are satisfiable by non-trivial inputs, with the computed results. *)
Example C18_progress_example :
  let dels := [EDFolder; EDFile t0 7] in
  let copies := [EDFolder; EDSymlink SKFile (STNormalized []); EDFile t0 0; EDFile t0 10; EDFile t0 3145728] in
  let answers := [[(0, false)]; [(4, true); (6, false)]; [(1048576, true); (2097152, false)]] in
  Forall tail_nonempty answers /\
  is_ok (boss_run Saturating true false dels copies answers) = true /\
  (usual_constants ->
   boss_run Saturating true false dels copies answers =
    Ok [mkMarker 1048576 (PDeleting 1); mkMarker 2097152 (PCopying 0 0); mkMarker 3145728 (PCopying 1 0);
        mkMarker 4194304 (PCopying 2 0); mkMarker 5242880 (PCopying 3 0); mkMarker 6291456 (PCopying 4 10);
        mkMarker 7340032 (PCopying 4 1048586); mkMarker 9437184 PDone]).
Proof. exact progress_example. Qed.

Example C18_hist_example :
  obind (hist_adds bucket_ideal [] [0; 5; 1500; 1500; 20000000]) (fun h => obind (hist_display h) (fun l => Ok (h, l)))
  = Ok ([2; 0; 0; 2; 0; 0; 0; 1],
        [plit "#  #    "%string; plit "#  #    "%string; plit "#  #   #"%string; plit "#  #   #"%string; plit "#  #   #"%string; plit "012K45M7"%string]).
Proof. exact hist_example. Qed.

Example C18_meta_example :
  entry_of_meta true (mkMeta FTFile (Some (mkTime 0 0)) 0 None) = Ok (EDFile (mkTime 0 0) 0) /\
  entry_of_meta true (mkMeta FTFile (Some (mkTime (-1) 999999999)) 5 None) = Err e_pre_epoch /\
  entry_of_meta true (mkMeta FTOther None 0 None) = Err e_file_type /\
  cmd_from_listed [EDFile (mkTime 7 1) 3] (CCreateOrUpdateFile [] [] (Some (mkTime 7 1)) false).
Proof. repeat split; try (vm_compute; reflexivity). exists 3. now left. Qed.

Print Assumptions C18_progress_no_panic.
Print Assumptions C18_progress_assertions_hold.
Print Assumptions C18_progress_all_sent.
Print Assumptions C18_real_reader_satisfies_premise.
Print Assumptions C18_hist_adds_no_panic.
Print Assumptions C18_hist_display_max_positive.
Print Assumptions C18_listed_entry_never_panics_send.
Print Assumptions C18_commands_from_listed_never_panic.
Print Assumptions C18_exit_codes_boss_documented.
Print Assumptions C18_exits_outside_known.
