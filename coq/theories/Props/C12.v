(* C12 - Symlinks are copied as links and never followed.  Statements only. *)
From RJ Require Import Base.Prelude Base.OrderedPlan Model.Settings Model.Core Model.Fs Model.Paths Model.Sync
  Spec.PlanSpec Spec.Mirror Proofs.FsProofs Proofs.ExecProofs Proofs.PathsProofs Proofs.ConfineProofs Proofs.MirrorProofs
  Proofs.QuietProofs Proofs.ConfineAll.
From RJ Require Model.Walker Proofs.WalkBridge Proofs.WalkedSync.
From RJ Require Import Proofs.Utf8Join.

(* A symlink is a leaf of every listing: nothing below a symlink is visible, whatever it points at. *)
Theorem C12_leaf : forall incl f p q t k,
  q <> [] -> visible incl f p = true -> is_strict_prefix q p = true -> fget f q = Some (NLink t k) -> False.
Proof. exact visible_no_link_above. Qed.

(* Deleting or replacing a destination symlink removes only the link: every other path keeps its
   node, and when the link's ancestors are folders nothing outside the tree is reached. *)
Theorem C12_delete_only_link : forall fl st p k st' e,
  doer_exec fl st (CDeleteSymlink p k) = (st', e) ->
  (forall q, q <> p -> fget (d_fs st') q = fget (d_fs st) q) /\
  (quiet_at st p -> d_events st' = d_events st).
Proof. exact delete_symlink_only_link. Qed.

(* A link is re-created iff its (normalised) text changed or, on a destination that distinguishes
   file from folder links, its kind changed. *)
Theorem C12_recreate_iff : forall diff ks ts kd td,
  needs_delete diff (ESymlink ks ts) (ESymlink kd td) = true <-> ts <> td \/ (diff = true /\ ks <> kd).
Proof. exact needs_delete_links. Qed.

(* Relative link text reaches a Unix destination with the same components (separators adapted, redundant
   ones dropped); any other text - absolute, with a backslash - is carried over verbatim; on a Windows
   destination the separators of a normalised text become backslashes (modelled, not validated here). *)
Theorem C12_text_relative : forall t, lossy t = t -> same_path_text t (denormalize Unix (normalize_unix t)) = true.
Proof. exact link_text_preserved. Qed.
Theorem C12_text_verbatim : forall t s, lossy t = t -> normalize_unix t = TRaw s -> denormalize Unix (normalize_unix t) = t.
Proof. exact raw_text_verbatim. Qed.
Theorem C12_text_windows : forall s,
  denormalize Windows (TNorm s) = map (fun c => if Ascii.eqb c slash then backslash else c) s /\
  forall r, denormalize Windows (TRaw r) = r.
Proof. intros s. split; reflexivity. Qed.
(* F7: ill-formed UTF-8 text is NOT carried over verbatim (known finding). *)
Theorem C12_text_refuted_for_ill_formed :
  exists t, normalize_unix (denormalize Unix (normalize_unix t)) <> normalize_unix t.
Proof. exact link_text_roundtrip_refuted. Qed.

(* rjrssync never reads, copies, creates or deletes anything THROUGH a link in a sync that returns Ok
   and skips nothing (shared with C02). *)
Theorem C12_never_through : forall now_z incl normalize chunker,
  (forall d, chunker d <> [] /\ concat (chunker d) = d) ->
  forall cfg S D ans bits ls ld ft,
  valid_listing now_z incl normalize S ls -> valid_listing now_z incl normalize (d_fs D) ld ->
  parents_first (lkeys (side_listing now_z normalize S ls)) ->
  parents_first (lkeys (side_listing now_z normalize (d_fs D) ld)) ->
  wf_fs (d_fs D) -> d_open D = None -> no_through (d_events D) ->
  let r := sync_one now_z normalize chunker cfg S D ans bits ls ld ft in
  r_ok r = true -> r_skipped r = [] -> r_root_skipped r = false -> cf_dry cfg = false ->
  no_through (d_events (r_dest r)).
Proof. intros now_z incl normalize chunker _. apply clean_run_confined. Qed.

(* ... and, with the F6a/F6b repairs modelled, in NO run at all - whatever is skipped, whatever fails, however
   late the boss notices (Proofs/ConfineAll.v). *)
Theorem C12_never_through_in_any_run : forall now_z incl normalize chunker cfg S D ans bits ls ld ft,
  valid_listing now_z incl normalize S ls -> valid_listing now_z incl normalize (d_fs D) ld ->
  parents_first (lkeys (side_listing now_z normalize S ls)) ->
  parents_first (lkeys (side_listing now_z normalize (d_fs D) ld)) ->
  wf_fs (d_fs D) -> no_through (d_events D) ->
  no_through (d_events (r_dest (sync_one now_z normalize chunker cfg S D ans bits ls ld ft))).
Proof. exact no_run_goes_through_a_link. Qed.

(* ... and with the listing premises discharged by the directory walk (C17, Proofs/WalkBridge.v): given on each
   side whatever any execution of the N-worker walk over that side's tree delivers, NO run resolves a path
   through a destination symlink. *)
Theorem C12_walked_never_through : forall now_z incl normalize chunker cfg S D ans bits ls ld ft,
  wf_fs S -> wf_fs (d_fs D) -> no_through (d_events D) ->
  WalkedSync.walked now_z incl normalize S ls -> WalkedSync.walked now_z incl normalize (d_fs D) ld ->
  no_through (d_events (r_dest (sync_one now_z normalize chunker cfg S D ans bits ls ld ft))).
Proof. exact WalkedSync.walked_sync_never_through. Qed.

(* The text a Unix destination doer writes for a well-formed source text is well-formed UTF-8 again (so it is in the
   domain of the theorems above when the destination is synced onwards). *)
Theorem C12_written_text_well_formed : forall t, utf8_valid t = true -> utf8_valid (denormalize Unix (normalize_unix t)) = true.
Proof. exact written_text_valid. Qed.

Print Assumptions C12_leaf.
Print Assumptions C12_never_through_in_any_run.
Print Assumptions C12_recreate_iff.
Print Assumptions C12_never_through.
Print Assumptions C12_walked_never_through.
Print Assumptions C12_written_text_well_formed.
