(* C03 - Nothing on the destination is deleted or overwritten without configured consent.
   Statements only (proofs: Proofs/ConfirmProofs.v, Proofs/SyncProofs.v, Proofs/ConsentAll.v, Proofs/KillEvents.v,
   Proofs/WalkedSync.v). *)
From RJ Require Import Base.Prelude Base.OrderedPlan Model.Settings Model.Core Model.Fs Model.Sync
  Spec.PlanSpec Spec.Mirror Proofs.FsProofs Proofs.ConfirmProofs Proofs.SyncProofs Proofs.MirrorProofs Proofs.InstanceProofs
  Proofs.CrashProofs Proofs.CrashMain Proofs.TouchedProofs Proofs.ConsentAll Proofs.KillEvents.
From RJ Require Import Model.Paths Model.SyncTop.
From RJ Require Model.Walker Proofs.WalkBridge Proofs.WalkedSync.

(* A destination entry stays in the delete list (= a Delete* command is issued for it) only if the
   entry-deletion behaviour is "delete", or it is "prompt" and some prompt was answered "delete".
   [b] is the setting on entry to the loop, [ans] every answer still to come. *)
Theorem C03_delete_needs_consent : forall l b ans np rm b' ans' np',
  confirm_deletes b ans l np = Some (rm, b', ans', np') ->
  forall p, In p (map fst l) -> ~ In p rm -> b = BAct \/ (b = BPrompt /\ has_act ans = true).
Proof. exact confirm_deletes_consent. Qed.

(* An existing destination file stays in the copy list only if the behaviour for ITS case (newer /
   older / same time) is "overwrite", or is "prompt" and a prompt was answered "overwrite". *)
Theorem C03_overwrite_needs_consent : forall l b ans np rm b' ans' np',
  confirm_copies b ans l np = Some (rm, b', ans', np') ->
  forall p e r, In (p, (e, r)) l -> ~ In p rm -> r <> NotOnDest ->
  get_beh b r = BAct \/ (get_beh b r = BPrompt /\ has_act ans = true).
Proof. exact confirm_copies_consent. Qed.

(* An "all occurrences" answer changes the behaviour of its own category only. *)
Theorem C03_no_leak : forall b r r' v, r <> r' -> get_beh (set_beh b r v) r' = get_beh b r'.
Proof. exact get_set_other. Qed.
Theorem C03_no_leak_entry : forall b r v, b_entry (set_beh b r v) = b_entry b.
Proof. exact set_beh_entry. Qed.

(* error setting / cancelled prompt / unattended terminal: the confirmation fails as a whole ... *)
Theorem C03_error_fails : forall ans e l np, confirm_deletes BError ans (e :: l) np = None.
Proof. exact confirm_deletes_error. Qed.
Theorem C03_unattended_fails : forall e l np, confirm_deletes BPrompt [] (e :: l) np = None.
Proof. exact confirm_deletes_unattended. Qed.
Theorem C03_cancel_fails : forall ans e l np, confirm_deletes BPrompt (AnsCancel :: ans) (e :: l) np = None.
Proof. exact confirm_deletes_cancel. Qed.
(* ... skip keeps every entry out of the delete list, delete removes none *)
Theorem C03_skip_removes_all : forall l ans np, confirm_deletes BSkip ans l np = Some (map fst l, BSkip, ans, np).
Proof. exact confirm_deletes_skip_all. Qed.
Theorem C03_only_confirmable_removed : forall l b ans np rm b' ans' np',
  confirm_copies b ans l np = Some (rm, b', ans', np') ->
  forall p, In p rm -> exists e r, In (p, (e, r)) l /\ r <> NotOnDest.
Proof. exact confirm_copies_keeps_new. Qed.

(* ... and a sync whose confirmation failed has exit status <> 0, an unchanged destination tree and
   has sent no mutating command, for every tree pair, listing order, interleaving and fault plan. *)
Theorem C03_error_is_clean : forall now_z normalize chunker cfg S D ans bits ls ld ft,
  NoDup (lkeys ls) -> ~ In [] (lkeys ls) ->
  let r := sync_one now_z normalize chunker cfg S D ans bits ls ld ft in
  r_confirm_failed r = true ->
  r_ok r = false /\ d_fs (r_dest r) = d_fs D /\ filter mutating (r_dest_trace r) = [].
Proof. exact decision_failure_is_clean. Qed.

(* All decisions are taken before the first change: a prompt can only occur when the destination
   root exists, and then no mutating command precedes the end of the confirmation pass. *)
Theorem C03_decide_first_a : forall now_z normalize chunker cfg S D ans bits ls ld ft,
  NoDup (lkeys ls) -> ~ In [] (lkeys ls) -> fget (d_fs D) [] = None ->
  r_prompts (sync_one now_z normalize chunker cfg S D ans bits ls ld ft) = [].
Proof. exact prompts_need_dest_root. Qed.
Theorem C03_decide_first_b : forall now_z normalize chunker cfg S D ans bits ls ld ft dn,
  fget (d_fs D) [] = Some dn ->
  let r := sync_one now_z normalize chunker cfg S D ans bits ls ld ft in
  r_confirm_failed r = true \/ r_root_skipped r = true \/ cf_dry cfg = true ->
  filter mutating (r_dest_trace r) = [].
Proof. exact nothing_sent_before_confirmation. Qed.

(* skip: a destination path that no sent command names keeps its node (bytes, timestamp, link text).
   PARTIAL with respect to the property text: for a skipped *copy* the path is named by no command
   (it is removed from the copy list and was never in the delete list); for a skipped *deletion* whose
   source entry is incompatible the copies at or below the kept entry are dropped from the plan as well
   (Core.confirm: kept_in_the_way / not_blocked, boss_sync.rs confirm_actions; ConfirmProofs.confirmed_in_the_way).
   That no command names the path is a premise here; C03_end_to_end below derives it from the plan. *)
Theorem C03_skip_keeps_partial : forall now_z normalize chunker cfg S D ans bits ls ld ft p,
  let r := sync_one now_z normalize chunker cfg S D ans bits ls ld ft in
  (forall c, In c (r_dest_trace r) -> cmd_path c <> Some p) ->
  fget (d_fs (r_dest r)) p = fget (d_fs D) p.
Proof. exact sync_frame. Qed.

(* END TO END, for all runs: whenever an existing destination entry is no longer what it was - at the end of a
   run, successful or failed, or in any state a kill can leave behind - the consent of its category was
   configured or given: the entry-deletion setting for an entry that is gone or replaced, the newer / older /
   same-time setting for an existing file whose bytes or time changed.  (Composition of C07's
   "only planned changes" with the confirmation theorems above and the plan's facts; the F6a repair -
   nothing is copied at or below a kept entry - is what makes the skipped-deletion case go through.) *)
Theorem C03_end_to_end : forall now_z incl normalize chunker,
  forall cfg S D ans bits ls ld,
  valid_listing now_z incl normalize S ls -> valid_listing now_z incl normalize (d_fs D) ld -> wf_fs (d_fs D) -> d_open D = None ->
  let steps := snd (sync_plan now_z normalize chunker cfg S D ans bits ls ld) in
  forall s, Touched (cf_fl cfg) S (d_fs D) (cmd_of_plan steps) (file_of_plan steps) s ->
  forall p n, fget (d_fs D) p = Some n -> fget (d_fs s) p <> Some n ->
    entry_consent cfg ans \/
    ((exists m d m' d', n = NFile m d /\ fget (d_fs s) p = Some (NFile m' d')) /\ overwrite_consent cfg ans).
Proof. intros now_z incl normalize chunker. exact (consent_end_to_end now_z incl normalize chunker). Qed.

(* ... the same with both listings delivered by arbitrary executions of the directory walk (C17, Proofs/WalkBridge.v). *)
Theorem C03_end_to_end_walked : forall now_z incl normalize chunker,
  forall cfg S D ans bits ls ld,
  wf_fs S -> wf_fs (d_fs D) -> d_open D = None ->
  WalkedSync.walked now_z incl normalize S ls -> WalkedSync.walked now_z incl normalize (d_fs D) ld ->
  let steps := snd (sync_plan now_z normalize chunker cfg S D ans bits ls ld) in
  forall s, Touched (cf_fl cfg) S (d_fs D) (cmd_of_plan steps) (file_of_plan steps) s ->
  forall p n, fget (d_fs D) p = Some n -> fget (d_fs s) p <> Some n ->
    entry_consent cfg ans \/
    ((exists m d m' d', n = NFile m d /\ fget (d_fs s) p = Some (NFile m' d')) /\ overwrite_consent cfg ans).
Proof. exact WalkedSync.walked_consent. Qed.

Theorem C03_end_to_end_executable : forall cfg S D a ans bits ex ft s,
  unique_keys S -> wf_fs S -> unique_keys D -> wf_fs D ->
  let ls := list_fs now_far (excl_incl ex) normalize_unix S in
  let ld := list_fs now_far (excl_incl ex) normalize_unix D in
  (In s (sync_kill_states now_far normalize_unix chunk_real cfg S (world D a []) ans bits ls ld ft) \/
   s = r_dest (run_top cfg S D a ans bits ex ft)) ->
  forall p n, fget D p = Some n -> fget (d_fs s) p <> Some n ->
    entry_consent cfg ans \/
    ((exists m d m' d', n = NFile m d /\ fget (d_fs s) p = Some (NFile m' d')) /\ overwrite_consent cfg ans).
Proof. exact consent_executable. Qed.

(* Non-vacuity: a prompt answered "skip once" then "delete all" on three extra entries. *)
Example C03_example :
  let e := (EFile 1 1, NotOnSource) in
  confirm_deletes BPrompt [AnsOnce false; AnsAll true] [([["a"%char]], e); ([["b"%char]], e); ([["c"%char]], e)] [] =
  Some ([[["a"%char]]], BAct, [], [PDelete [["a"%char]]; PDelete [["b"%char]]]).
Proof. vm_compute. reflexivity. Qed.

Print Assumptions C03_delete_needs_consent.
Print Assumptions C03_overwrite_needs_consent.
Print Assumptions C03_error_is_clean.
Print Assumptions C03_end_to_end.
Print Assumptions C03_end_to_end_executable.
Print Assumptions C03_end_to_end_walked.
