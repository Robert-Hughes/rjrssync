(* C11 - File contents are transferred exactly, whatever the length.
   This file contains only statements, each closed by [exact], and their assumption audit.

   Model/Chunk.v:  read_chunks  = handle_get_file_contents (doer.rs), for a file content and a
                                  short-read schedule (which 1..buffer-size result each read(2) returns)
                   relay        = the chunk loop of copy_file (boss_sync.rs) after the fix of F3,
                                  relay_unfixed = before it
                   write_cmds   = CreateOrUpdateFile on the destination doer (doer.rs)
                   transfer     = the three together. *)
From RJ Require Import Base.Prelude Model.Chunk Proofs.ChunkProofs Proofs.ChunkFacts Gen.Facts_chunks.
Local Open Scope N_scope.

(* The chunk reader, for every file content and every short-read schedule: it terminates, the chunks
   concatenate to the file, more_to_follow is true,...,true,false, no chunk exceeds 4 MiB, an empty
   file gives exactly one empty chunk and a non-empty file gives only non-empty chunks. *)
Theorem C11_chunks : forall (file : list ascii) (sched : list N),
  exists cs, read_chunks file sched = Some cs /\
    concat (map fst cs) = file /\
    map snd cs = repeat true (List.length cs - 1) ++ [false] /\
    Forall (fun c => lenN (fst c) <= 4194304) cs /\
    (file <> [] -> Forall (fun c => fst c <> []) cs) /\
    (file = [] -> cs = [([], false)]).
Proof. exact C11_chunks_proof. Qed.

(* There is exactly one chunk iff the file is empty or the first read (4096-byte buffer) returned all
   of it; with full reads: iff the file has at most 4096 bytes. *)
Theorem C11_one_chunk : forall (file : list ascii) (sched : list N) cs,
  read_chunks file sched = Some cs ->
  (List.length cs = 1%nat <-> file = [] \/ read_len 4096 (lenN file) (hd_error sched) = lenN file) /\
  (sched = [] -> (List.length cs = 1%nat <-> lenN file <= 4096)).
Proof. exact read_chunks_one_chunk_both. Qed.

(* The chunk writer: whatever the destination held before (nothing, a shorter, a longer file), after the
   commands of a complete chunk sequence it holds exactly the concatenation, stamped with the source's
   modification time, and the handle is closed ... *)
Theorem C11_write : forall (mt : Z) (cs : list chunk) (prev : option dfile),
  flags_ok cs ->
  write_cmds (WClosed prev) (map (cmd_of mt) cs) = WClosed (Some (mkFile (concat (map fst cs)) (Some mt))).
Proof. exact write_transfer. Qed.

(* ... and after any proper, non-empty prefix of the commands the file holds the bytes so far and is
   NOT stamped (the modification time is applied only with the last chunk). *)
Theorem C11_write_prefix_unstamped : forall (mt : Z) (cs : list chunk) (prev : option dfile) pre post,
  flags_ok cs -> cs = pre ++ post -> pre <> [] -> post <> [] ->
  write_cmds (WClosed prev) (map (cmd_of mt) pre) = WOpen (mkFile (concat (map fst pre)) None).
Proof. exact write_prefix_unstamped. Qed.

(* The relay: when the bytes sent add up to the listed size, exactly the chunks are forwarded (the
   last one with the modification time) and the result is Ok ... *)
Theorem C11_relay_ok : forall listed (mt : Z) (cs : list chunk),
  flags_ok cs -> total cs = listed ->
  relay listed mt cs = (map (cmd_of mt) cs, Ok tt).
Proof. exact (fun listed mt cs Hf Ht => relay_from_ok true listed mt cs 0 Hf Ht). Qed.

(* ... and when they do not (the file grew or shrank between listing and the last read, by any amount,
   at any chunk position) the result is the size-changed error. *)
Theorem C11_relay_detects : forall listed (mt : Z) (cs : list chunk),
  flags_ok cs -> total cs <> listed ->
  snd (relay listed mt cs) = Err e_size_changed.
Proof. exact (fun listed mt cs Hf Ht => relay_from_detects listed mt cs 0 Hf Ht). Qed.

(* For ANY answer of the source doer (well formed or not): Ok only if a complete chunk sequence of
   exactly the listed size was forwarded. *)
Theorem C11_relay_ok_only_if : forall listed (mt : Z) (cs : list chunk) cmds,
  relay listed mt cs = (cmds, Ok tt) ->
  exists pre post, cs = pre ++ post /\ flags_ok pre /\ total pre = listed /\ cmds = map (cmd_of mt) pre.
Proof. exact (fun listed mt cs cmds H => relay_from_ok_inv listed mt cs 0 cmds H). Qed.

(* Reader, relay and writer together: if the size is the listed one, the destination ends up with
   exactly the source bytes and the source's modification time, for every content, every short-read
   schedule, every previous destination ... *)
Theorem C11_end_to_end : forall (file : list ascii) (sched : list N) (prev : option dfile) (mt : Z),
  transfer (lenN file) mt file sched prev = Some (WClosed (Some (mkFile file (Some mt))), Ok tt).
Proof. exact transfer_same_size. Qed.

(* ... and if it is not, the transfer fails with the size-changed error. *)
Theorem C11_size_change_detected : forall listed (file : list ascii) (sched : list N) (prev : option dfile) (mt : Z),
  listed <> lenN file ->
  exists st, transfer listed mt file sched prev = Some (st, Err e_size_changed).
Proof. exact transfer_size_changed. Qed.

(* F3: the code before the fix reports Ok for a file that grew from 4096 to 8192 bytes. *)
Theorem C11_relay_unfixed_refuted :
  exists listed mt cs, flags_ok cs /\ total cs <> listed /\
    snd (relay_unfixed listed mt cs) = Ok tt /\
    write_cmds (WClosed None) (fst (relay_unfixed listed mt cs))
      = WOpen (mkFile (repeat "a"%char 4096) None).
Proof. exact relay_unfixed_refuted. Qed.

(* Against the facts regenerated from the running code. *)
Theorem C11_constants_match_code : first_buf = impl_first_chunk /\ max_chunk = impl_max_chunk.
Proof. exact constants_match_code. Qed.

Theorem C11_ladder_matches_code : forall file : list ascii, lenN file = 20971520 ->
  exists cs, read_chunks file [] = Some cs /\ sizes cs = impl_ladder.
Proof. exact ladder_matches_code. Qed.

Theorem C11_fits :
  impl_max_chunk + impl_overhead_file_content + 16 + 8 <= impl_frame_buf /\
  (forall path_len, path_len <= 4096 ->
     impl_max_chunk + impl_overhead_create_file + path_len + 16 + 8 <= impl_frame_buf) /\
  max_chunk <= impl_frame_payload_max /\
  impl_create_file_fits = true.
Proof. exact frame_fits. Qed.

(* Non-vacuity: a 5000-byte file read with a short first read, relayed and written over a longer file. *)
Example C11_example :
  let file := repeat "x"%char (N.to_nat 5000) in
  option_map (fun cs => map (fun c => (lenN (fst c), snd c)) cs) (read_chunks file [100; 5000]) =
    Some [(100, true); (32, true); (4868, false)] /\
  transfer 5000 7%Z file [100; 5000] (Some (mkFile (repeat "y"%char (N.to_nat 9000)) None)) =
    Some (WClosed (Some (mkFile file (Some 7%Z))), Ok tt).
Proof.
  intros file. split; [vm_compute; reflexivity|].
  assert (Hl : lenN file = 5000) by (unfold file; rewrite lenN_spec, repeat_length; apply N2Nat.id).
  pose proof (transfer_same_size file [100; 5000] (Some (mkFile (repeat "y"%char (N.to_nat 9000)) None)) 7%Z) as T.
  rewrite Hl in T. exact T.
Qed.

Print Assumptions C11_chunks.
Print Assumptions C11_end_to_end.
Print Assumptions C11_size_change_detected.
Print Assumptions C11_relay_ok_only_if.
Print Assumptions C11_ladder_matches_code.
