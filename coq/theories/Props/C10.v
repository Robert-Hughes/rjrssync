(* C10 - The boss-doer link rejects forged, altered, replayed or reordered frames.
   Only statements, each closed by [exact], an example that the premises are satisfiable, and the
   assumption audit.  Model: Model/Frame.v (encrypted_comms.rs send / receive / thread loops), the
   repaired code is [bump = true]; the pinned tree ([bump = false], finding F2) is refuted below.

   AEAD premises ([ideal_aead open log], explicit premises - not axioms):
     H1  what an honest end sealed under the session key opens, under the same nonce, to its plaintext;
     H2  whatever opens under the session key and a nonce was sealed by an honest end under that nonce.
   [honest_run seal d ms frames]: the sender of direction d sent ms and produced frames without failing.
   [wf] / [fin]: the plaintext deserializes / is the final message of its direction (message layer, abstract). *)
From Coq Require Import String.
From RJ Require Import Base.Prelude Model.Frame Proofs.FrameProofs Gen.Facts_frames.
Local Open Scope N_scope.

(* For every byte stream on the wire (any manipulation, any history, any key), what the receiver
   delivers is exactly the messages of the leading frames that are the honest frames of this
   direction in order (cut after the final message, after which the receiving thread stops). *)
Theorem C10_prefix : forall seal open wf fin d sent_d sent_o frames_d frames_o,
  honest_run seal d sent_d frames_d -> honest_run seal (other d) sent_o frames_o ->
  ideal_aead open (dir_log seal d sent_d sent_o) ->
  Forall (fun m => wf m = true) sent_d ->
  forall wire,
    snd (recv_bytes open wf fin true d (r_init d) wire) = upto_final fin (firstn (lead frames_d wire) sent_d).
Proof. exact final_prefix. Qed.

(* ... and at the first deviating frame the receiver fails for good (it merely waits while the bytes
   it has do not yet make up a length field and a complete body). *)
Theorem C10_fails_at_first_deviation : forall seal open wf fin d sent_d sent_o frames_d frames_o,
  honest_run seal d sent_d frames_d -> honest_run seal (other d) sent_o frames_o ->
  ideal_aead open (dir_log seal d sent_d sent_o) ->
  Forall (fun m => wf m = true) sent_d ->
  forall wire,
    let st := fst (recv_bytes open wf fin true d (r_init d) wire) in
    if existsb fin (firstn (lead frames_d wire) sent_d) then r_st st = RFinished
    else if decidable_head (after_lead frames_d wire) then is_failed st = true
         else is_waiting st = true.
Proof. exact final_status. Qed.

(* The manipulations of the property text, uniformly: whatever complete frame [frame_of c'] stands where
   the j-th honest frame should be - bit-flipped, shortened, sealed without the key, a copy of an earlier
   frame (replay), a later frame (reorder, or after a drop), a frame of the other direction (reflection) -
   the first j messages are delivered, nothing of [c'] or of what follows, and the receiver has failed. *)
Theorem C10_deviating_frame_rejected : forall seal open wf fin d sent_d sent_o frames_d frames_o,
  honest_run seal d sent_d frames_d -> honest_run seal (other d) sent_o frames_o ->
  ideal_aead open (dir_log seal d sent_d sent_o) ->
  Forall (fun m => wf m = true) sent_d ->
  forall j c' rest,
    (j <= length sent_d)%nat -> existsb fin (firstn j sent_d) = false ->
    blen c' <= buf_size -> nth_error frames_d j <> Some (frame_of c') ->
    let wire := concat (firstn j frames_d) ++ frame_of c' ++ rest in
    snd (recv_bytes open wf fin true d (r_init d) wire) = firstn j sent_d /\
    is_failed (fst (recv_bytes open wf fin true d (r_init d) wire)) = true.
Proof. exact final_deviating. Qed.

(* Frames of a different session - another boss-doer link of the same run (source and destination both remote),
   sealed by its honest senders under its own key [seal'] - are rejected as well, whichever direction d' and
   position j' of the other link they come from (in particular the same direction and position, j' = j, d' = d):
   a corollary of the theorem above, because H2 speaks about this link's key only ([dir_log seal ...]: nothing but
   this link's two senders ever sealed under it - "every doer launch gets a newly generated key", C15; the tie
   checks that premise on the real binaries with the cross-link man in the middle and the key comparison).
   The last premise excludes the one harmless case: the foreign frame being byte for byte this link's own j-th frame. *)
Theorem C10_foreign_session_frame_rejected : forall seal seal' open wf fin d sent_d sent_o frames_d frames_o d' sent' frames',
  honest_run seal d sent_d frames_d -> honest_run seal (other d) sent_o frames_o ->
  ideal_aead open (dir_log seal d sent_d sent_o) ->
  Forall (fun m => wf m = true) sent_d ->
  honest_run seal' d' sent' frames' ->
  forall j j' f' rest,
    (j <= length sent_d)%nat -> existsb fin (firstn j sent_d) = false ->
    nth_error frames' j' = Some f' -> nth_error frames_d j <> Some f' ->
    let wire := concat (firstn j frames_d) ++ f' ++ rest in
    snd (recv_bytes open wf fin true d (r_init d) wire) = firstn j sent_d /\
    is_failed (fst (recv_bytes open wf fin true d (r_init d) wire)) = true.
Proof. exact final_foreign_session. Qed.

(* A length field beyond the 8 MiB buffer: the receiving thread panics on the slice index - a failed
   connection (noted for C18). *)
Theorem C10_oversize_length_panics : forall seal open wf fin d sent_d sent_o frames_d frames_o,
  honest_run seal d sent_d frames_d -> honest_run seal (other d) sent_o frames_o ->
  ideal_aead open (dir_log seal d sent_d sent_o) ->
  Forall (fun m => wf m = true) sent_d ->
  forall j h rest,
    (j <= length sent_d)%nat -> existsb fin (firstn j sent_d) = false ->
    length h = 8%nat -> buf_size < le_value h ->
    let wire := concat (firstn j frames_d) ++ h ++ rest in
    snd (recv_bytes open wf fin true d (r_init d) wire) = firstn j sent_d /\
    is_failed (fst (recv_bytes open wf fin true d (r_init d) wire)) = true.
Proof. exact final_oversize. Qed.

(* Nonces: direction and index are recoverable from the nonce ... *)
Theorem C10_nonces_distinct : forall d i d' i',
  i < idx_limit -> i' < idx_limit -> nonce d i = nonce d' i' -> d = d' /\ i = i'.
Proof. exact nonces_distinct. Qed.

(* ... hence no two frames of a session, in either direction, are sealed under the same (key, nonce);
   a sender that would have to wrap its counter panics instead ([honest_run] is then false). *)
Theorem C10_no_nonce_reuse : forall seal sent0 sent1 frames0 frames1,
  honest_run seal BossToDoer sent0 frames0 -> honest_run seal DoerToBoss sent1 frames1 ->
  NoDup (map (fun e => fst (fst e)) (dir_log seal BossToDoer sent0 sent1)).
Proof. exact final_no_reuse. Qed.

(* A peer that does not hold the key (nothing was ever sealed under it by anybody else): no message is
   delivered, whatever it sends - the doer performs no command.  Holds for the unrepaired code as well. *)
Theorem C10_no_key_no_command : forall open wf fin bump d,
  ideal_aead open [] ->
  forall wire, snd (recv_bytes open wf fin bump d (r_init d) wire) = [].
Proof. exact final_no_key. Qed.

(* ... also when the keyless peer reflects the receiver's own side's frames back to it. *)
Theorem C10_reflection_only_no_command : forall seal open wf fin d own frames,
  honest_run seal (other d) own frames ->
  (forall n m c, open n c = Some m -> In (n, m, c) (seal_log seal true (lsb (other d)) own)) ->
  forall wire, snd (recv_bytes open wf fin true d (r_init d) wire) = [].
Proof. exact final_reflection. Qed.

(* TCP segmentation is irrelevant: feeding segments one by one is feeding their concatenation. *)
Theorem C10_segmentation : forall open wf fin bump d st segs,
  recv_segments open wf fin bump d st segs = recv_bytes open wf fin bump d st (concat segs).
Proof. exact final_segmentation. Qed.

(* C14, TCP half: without an adversary the messages arrive exactly once, in order, intact, for every
   segmentation of the byte stream (needs only H1, for all nonces and plaintexts). *)
Theorem C14_stream : forall seal open wf fin d,
  (forall n m, open n (seal n m) = Some m) ->
  forall msgs segs ctr' frames,
    send_all seal true d (lsb d) msgs = Ok (ctr', frames) ->
    Forall (fun m => wf m = true) msgs ->
    upto_final fin msgs = msgs ->
    concat segs = concat frames ->
    decode_stream open wf fin true d segs = msgs.
Proof. exact stream_roundtrip. Qed.

(* The pinned tree (the counter never advances): with the premises H1/H2 satisfied, a frame put on the
   wire twice is delivered twice, and two frames share one (key, nonce).  Finding F2. *)
Theorem C10_refuted_without_bump :
  let k := refute_key in
  let sent := [refute_m0; refute_m1] in
  let log := toy_session_log false k sent [] in
  (forall n m c, In (n, m, c) log -> toy_open log n c = Some m) /\
  (forall n m c, toy_open log n c = Some m -> In (n, m, c) log) /\
  exists f0 f1 ctr',
    toy_send false k BossToDoer (lsb BossToDoer) sent = Ok (ctr', [f0; f1]) /\
    snd (toy_recv false log BossToDoer (r_init BossToDoer) (f0 ++ f0 ++ f1)) = [refute_m0; refute_m0; refute_m1] /\
    lead [f0; f1] (f0 ++ f0 ++ f1) = 1%nat /\
    ~ NoDup (log_nonces log).
Proof. exact refuted_without_bump. Qed.

(* The theorems above are about [bump = true]; that is the code only if the running code steps its
   counter (Gen/Facts_frames.v is regenerated from the real `send` on every run). *)
Theorem C10_code_advances_counter : impl_frames_counter_advances = true /\ impl_frames_ctr_after_two = 4.
Proof. split; reflexivity. Qed.

Theorem C10_buffer_matches_code : impl_frames_buf = buf_size /\ impl_frames_tag = 16.
Proof. split; reflexivity. Qed.

(* Non-vacuity: the toy ideal functionality satisfies every premise of C10_prefix, and the honest
   stream is delivered. *)
Theorem C10_premises_satisfiable :
  let seal := toy_seal ex_key in
  let open := toy_open (dir_log seal BossToDoer ex_sent0 ex_sent1) in
  exists f0 f1,
    honest_run seal BossToDoer ex_sent0 f0 /\ honest_run seal DoerToBoss ex_sent1 f1 /\
    ideal_aead open (dir_log seal BossToDoer ex_sent0 ex_sent1) /\
    Forall (fun m => toy_wf m = true) ex_sent0 /\
    snd (recv_bytes open toy_wf toy_fin true BossToDoer (r_init BossToDoer) (concat f0)) = ex_sent0.
Proof. exact premises_satisfiable. Qed.

Example C10_example_duplicate_rejected :
  let k := refute_key in
  let sent := [refute_m0; refute_m1] in
  let log := toy_session_log true k sent [] in
  exists f0 f1 ctr',
    toy_send true k BossToDoer (lsb BossToDoer) sent = Ok (ctr', [f0; f1]) /\
    snd (toy_recv true log BossToDoer (r_init BossToDoer) (f0 ++ f0 ++ f1)) = [refute_m0] /\
    is_failed (fst (toy_recv true log BossToDoer (r_init BossToDoer) (f0 ++ f0 ++ f1))) = true.
Proof. exact repaired_rejects_duplicate. Qed.

Print Assumptions C10_prefix.
Print Assumptions C10_deviating_frame_rejected.
Print Assumptions C10_foreign_session_frame_rejected.
Print Assumptions C10_no_nonce_reuse.
Print Assumptions C14_stream.

(* The nonce counters of a whole boss <-> remote doer session (Model/RemoteSession.v carries them exactly as the
   code does: one counter per thread starting at the direction's lsb - boss sends 0 / expects 1, doer sends 1 /
   expects 0 -, +2 per frame, the counter RETURNED by the doer's sending thread re-used by its main thread for the
   final message; Model/RemoteSessionLog.v adds a ghost log of every frame ever written, per direction, on top of the
   unchanged transition system: lreach / reach are the same runs - C10_remote_log_is_conservative).
   Proofs: Proofs/RemoteSessionNonce.v.  For every protocol, capacity, socket capacity, fault plan, interleaving
   ((S6) in the numbering introduced in Props/C09.v):
          C10_remote_nonces_distinct: all frames ever written in a session - both directions, the doer's final message
          included - have pairwise distinct nonces; the i-th frame of a direction carries lsb + 2*i; the frames
          on the wire are a suffix of the log; the sending counters are lsb + 2 * (frames written).
          C10_remote_expected_nonce: while a receiving thread lives, its expected counter IS the nonce of the next
          frame on its wire - an honest frame is never rejected for its nonce. *)
From RJ Require Model.RemoteSession Model.RemoteSessionLog Proofs.RemoteSessionNonce Proofs.RemoteSessionWitness2.

Theorem C10_remote_nonces_distinct : forall c x l, RemoteSessionLog.lreach c x l ->
  NoDup (map RemoteSession.fnonce (RemoteSessionLog.lb2d l ++ RemoteSessionLog.ld2b l)) /\
  (forall i f, nth_error (RemoteSessionLog.lb2d l) i = Some f -> RemoteSession.fnonce f = (0 + 2 * N.of_nat i)%N) /\
  (forall i f, nth_error (RemoteSessionLog.ld2b l) i = Some f -> RemoteSession.fnonce f = (1 + 2 * N.of_nat i)%N) /\
  (exists pre, RemoteSessionLog.lb2d l = pre ++ RemoteSession.b2d (RemoteSessionLog.base l)) /\
  (exists pre, RemoteSessionLog.ld2b l = pre ++ RemoteSession.d2b (RemoteSessionLog.base l)) /\
  RemoteSession.sn (RemoteSession.be (RemoteSessionLog.base l)) = RemoteSessionLog.nend 0 (RemoteSessionLog.lb2d l) /\
  RemoteSession.sn (RemoteSession.de (RemoteSessionLog.base l)) = RemoteSessionLog.nend 1 (RemoteSessionLog.ld2b l).
Proof. exact RemoteSessionNonce.nonces_distinct. Qed.

Theorem C10_remote_expected_nonce : forall c x s, RemoteSession.reach c x s ->
  (RemoteSession.rcv_ended (RemoteSession.rcv_t (RemoteSession.de s)) = false ->
     forall f t, RemoteSession.b2d s = f :: t -> RemoteSession.fnonce f = RemoteSession.rn (RemoteSession.de s)) /\
  (RemoteSession.rcv_ended (RemoteSession.rcv_t (RemoteSession.be s)) = false ->
     forall f t, RemoteSession.d2b s = f :: t -> RemoteSession.fnonce f = RemoteSession.rn (RemoteSession.be s)).
Proof. exact RemoteSessionNonce.expected_nonce. Qed.

(* the logged system has exactly the runs of the model the other theorems are about *)
Theorem C10_remote_log_is_conservative : forall c x,
  (forall l, RemoteSessionLog.lreach c x l -> RemoteSession.reach c x (RemoteSessionLog.base l)) /\
  (forall s, RemoteSession.reach c x s -> exists l, RemoteSessionLog.lreach c x l /\ RemoteSessionLog.base l = s).
Proof. intros c x. split; [apply RemoteSessionNonce.lreach_base | apply RemoteSessionNonce.reach_has_log]. Qed.

(* non-trivial: the log of a complete fault-free session; the final message is the doer's 4th frame, nonce 7 *)
Example C10_remote_example_log : exists c x l,
  RemoteSessionLog.lreach c x l /\ RemoteSession.final (RemoteSessionLog.base l) = true /\
  map RemoteSession.fnonce (RemoteSessionLog.lb2d l) = [0; 2; 4; 6]%N /\
  map RemoteSession.fnonce (RemoteSessionLog.ld2b l) = [1; 3; 5; 7]%N /\
  map RemoteSession.fpay (RemoteSessionLog.ld2b l) =
    [RemoteSession.MResp 11; RemoteSession.MResp 12; RemoteSession.MResp 31; RemoteSession.MFinal]%N.
Proof.
  exists (RemoteSessionWitness.cfg 0 0), RemoteSessionWitness2.sc_cov, RemoteSessionWitness2.l_cov.
  destruct RemoteSessionWitness2.log_of_a_complete_session as (A & B & C & D & E & _). auto.
Qed.

Print Assumptions C10_remote_nonces_distinct.
Print Assumptions C10_remote_expected_nonce.
Print Assumptions C10_remote_log_is_conservative.
