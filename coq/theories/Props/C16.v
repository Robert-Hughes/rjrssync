(* C16 - Effective settings follow the documented precedence and defaults.
   Statements and their assumption audit; the proofs are in Proofs/SettingsProofs.v. *)
From RJ Require Import Base.Prelude Model.Settings Proofs.SettingsProofs Gen.Facts.
From Coq Require Import String.

(* Precedence, for each behaviour, for every value triple. *)
Theorem C16_precedence : forall flag alld base,
  resolve_beh flag alld base = documented_rule flag alld base.
Proof. exact resolve_beh_documented. Qed.

(* ... and for every sync of a spec with any number of syncs: sources, destinations are kept,
   command-line filters replace spec-file filters, each of the five behaviours follows the rule. *)
Theorem C16_all_syncs : forall c base,
  Forall2 (sync_resolved c) (sp_syncs base) (sp_syncs (resolve_over c base)).
Proof. exact resolve_over_all_syncs. Qed.

Theorem C16_rest_of_spec : forall c base,
  sp_src_host (resolve_over c base) = sp_src_host base /\
  sp_src_user (resolve_over c base) = sp_src_user base /\
  sp_dest_host (resolve_over c base) = sp_dest_host base /\
  sp_dest_user (resolve_over c base) = sp_dest_user base /\
  sp_deploy (resolve_over c base) = match c_deploy c with Some d => d | None => sp_deploy base end.
Proof. exact resolve_over_rest. Qed.

(* A behaviour the spec file does not mention has its documented default as base value. *)
Theorem C16_absent_key_gives_default : forall kvs acc s,
  sync_fields acc kvs = Some s ->
  (forallb (fun kv => negb (key_is "dest_file_newer_behaviour" kv)) kvs = true -> s_newer s = s_newer acc) /\
  (forallb (fun kv => negb (key_is "dest_file_older_behaviour" kv)) kvs = true -> s_older s = s_older acc) /\
  (forallb (fun kv => negb (key_is "files_same_time_behaviour" kv)) kvs = true -> s_same s = s_same acc) /\
  (forallb (fun kv => negb (key_is "dest_entry_needs_deleting_behaviour" kv)) kvs = true -> s_entry s = s_entry acc) /\
  (forallb (fun kv => negb (key_is "dest_root_needs_deleting_behaviour" kv)) kvs = true -> s_root s = s_root acc) /\
  (forallb (fun kv => negb (key_is "filters" kv)) kvs = true -> s_filters s = s_filters acc).
Proof. exact sync_fields_absent. Qed.

Theorem C16_documented_defaults :
  s_newer default_sync = BPrompt /\ s_older default_sync = BAct /\ s_same default_sync = BSkip /\
  s_entry default_sync = BAct /\ s_root default_sync = BPrompt /\ sp_deploy default_spec = DPrompt /\
  s_filters default_sync = [].
Proof. exact documented_defaults. Qed.

(* The defaults of the model are the defaults of the running code (Gen/Facts.v is regenerated
   from `SyncSpec::default()` / `Spec::default()` on every run). *)
Theorem C16_defaults_match_code :
  default_sync = impl_default_sync /\ default_spec = impl_default_spec.
Proof. split; reflexivity. Qed.

Theorem C16_spec_equiv : forall c sh su dh du p q,
  p <> [] -> q <> [] ->
  resolve_spec c (Some (Some (one_sync_doc sh su dh du p q))) =
  resolve_spec (with_paths c sh su dh du p q) None.
Proof. exact spec_equiv. Qed.

Theorem C16_yaml_strict : forall y s, parse_sync_spec y = Some s ->
  exists kvs, y = YHash kvs /\
    forallb (fun kv => known_sync_key kv && sync_value_ok kv) kvs = true /\
    s_src s <> [] /\ s_dest s <> [].
Proof. exact parse_sync_spec_strict. Qed.

Theorem C16_reject_unparsable : forall c doc,
  parse_spec_doc doc = None -> resolve_spec c (Some (Some doc)) = None.
Proof. exact reject_unparsable. Qed.

(* Non-vacuity: a concrete spec file with two syncs parses, and resolution changes it. *)
Example C16_example :
  let doc := YHash [ (YString (lit "syncs"), YArray [
      YHash [ (YString (lit "src"), YString (lit "a")); (YString (lit "dest"), YString (lit "b"));
              (YString (lit "files_same_time_behaviour"), YString (lit "Error")) ];
      YHash [ (YString (lit "src"), YString (lit "c")); (YString (lit "dest"), YString (lit "d")) ] ]) ] in
  let c := mkCli None None [] None None (Some BSkip) None None None (Some AError) in
  option_map (fun s => map (fun y => (s_newer y, s_older y, s_same y, s_entry y, s_root y)) (sp_syncs s))
             (resolve_spec c (Some (Some doc)))
  = Some [ (BError, BSkip, BError, BError, BError); (BError, BSkip, BSkip, BError, BError) ].
Proof. vm_compute. reflexivity. Qed.

Print Assumptions C16_precedence.
Print Assumptions C16_all_syncs.
Print Assumptions C16_spec_equiv.
