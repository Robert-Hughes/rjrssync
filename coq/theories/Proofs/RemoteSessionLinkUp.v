(* Remote session model, link up and no fault step (C09): the boss's final wait is not stuck.  [stuck_shape], thread by
   thread, leaves the whole pipeline boss->doer empty; the flow invariant is then exact, so the doer has taken the
   Shutdown - while it sits in its message loop. *)
From RJ Require Import Base.Prelude Model.RemoteSession Proofs.RemoteSessionBase Proofs.RemoteSessionFlow
  Proofs.RemoteSessionAInv Proofs.RemoteSessionBlocked Proofs.RemoteSessionLinkDown Proofs.RemoteSessionFaultFree.

Local Open Scope nat_scope.

Lemma doer_step_dalive c s s' : doer_step c s = Some s' -> dalive (ev s) = false -> dalive (ev s') = false.
Proof.
  intros H D. apply doer_step_inv in H as [(o & d' & _ & _ & ->)|[(_ & _ & _ & _ & ->)|(code & _ & ->)]]; projs; auto.
Qed.

Lemma link_up_not_down s : link_down s = false -> link_up s.
Proof.
  unfold link_down, link_up. intros H. repeat (apply orb_false_iff in H as [H ?]).
  repeat split; [exact H | | |]; now apply negb_false_iff.
Qed.

(* the boss-side mirror of FFA.k_snd *)
Theorem boss_snd_err_doer_gone c x s : reach c x s -> nfault (ev s) = 0 -> snd_t (be s) = SErr -> dalive (ev s) = false.
Proof.
  revert s. apply (reach_next_ind c x (fun s => nfault (ev s) = 0 -> snd_t (be s) = SErr -> dalive (ev s) = false)).
  - intros _ Z. discriminate Z.
  - intros a s s' R IH H NF. pose proof (next_nfault _ _ _ _ H) as Le. assert (NF0 : nfault (ev s) = 0) by lia.
    specialize (IH NF0). pose proof (k_cut _ (reach_ffa _ _ _ R NF0)) as K.
    next_cases H; projs; auto.
    + destruct (ep_do_threads (be s) o) as (-> & _). destruct (boss_move_env _ _ _ _ _ M) as (_ & -> & _). exact IH.
    + intros Z. destruct E as [| | m T B |]; try discriminate Z. now apply b_broken_nocut.
    + destruct (rcv_spec_out _ _ _ _ _ _ E) as (-> & _). exact IH.
    + destruct (env_step_frame _ _ _ E) as (_ & F & _). intros Z. specialize (IH Z).
      destruct (dalive v'); [rewrite (F eq_refl) in IH; discriminate IH | reflexivity].
Qed.

Theorem no_stuck_ff_final_wait c x s : reach c x s -> nfault (ev s) = 0 ->
  pc (bm s) = BFinal \/ pc (bm s) = BJoinR ->
  final s = true \/ exists s', step c s s'.
Proof.
  intros R NF PC.
  destruct (link_down s) eqn:LD; [now apply (no_stuck_link_down c x)|].
  destruct (stuck c s) eqn:ST; [exfalso | now apply stuck_complete].
  destruct (stuck_sound _ _ ST) as [Hf NS]. apply link_up_not_down in LD. pose proof LD as (U1 & U2 & U3 & U4).
  destruct (reach_finv _ _ _ R) as [[(r1 & E1 & H2) Rxb Dnb Txd] [_ Rxd _ Txb]].
  pose proof (reach_boss_inv _ _ _ R) as BI. pose proof (reach_doer_inv _ _ _ R) as DI.
  pose proof (boss_snd_err_doer_gone _ _ _ R NF) as FB.
  assert (He : at_end s = false) by (unfold at_end; destruct PC as [-> | ->]; reflexivity).
  destruct (stuck_shape c s Hf He LD NS) as (BB & SB & RB & DB & SD & RD).
  assert (Ne : forall ch, over c ch -> q ch <> []) by (intros ch (_ & _ & H); exact H).
  (* 1. the boss's receiving thread is idle on an empty wire *)
  assert (W2 : d2b s = []).
  { destruct RB as [_ Hw | m Hm Ho | He'].
    - exact Hw.
    - exfalso. destruct PC as [P|P].
      + destruct BB as [[P'|[P' _]] _ | _ Q _ | P' _ | P' _ | P' _ | P']; try congruence.
        apply (Ne _ Ho). exact Q.
      + destruct Ho as (Rx & _). rewrite (b_rxa _ BI), P in Rx. discriminate Rx.
    - exfalso. rewrite He' in Txb. cbn [negb] in Txb. destruct PC as [P|P].
      + destruct BB as [[P'|[P' _]] _ | _ _ T | P' _ | P' _ | P' _ | P']; congruence.
      + destruct BB as [[P'|[P' _]] _ | [P'|[P' _]] _ _ | P' _ | _ Al | P' _ | P']; congruence. }
  (* 2. the doer main thread can only be blocked in its receive; then the wire boss->doer is empty too *)
  assert (NF2 : ~ full c (d2b s)) by (intros [_ X]; now apply X).
  assert (DL : dp (dm s) = DLoop /\ q (inc (de s)) = [] /\ b2d s = [] /\ rcv_ended (rcv_t (de s)) = false).
  { destruct DB as [r rest P Dp Ho | P Dp Q T | P Al | P Al | P So Fu].
    - exfalso. destruct Ho as (Rx & _ & Nq).
      destruct SD as [_ Q _ | m Hm Fu | He']; [now apply Nq | now apply NF2 | rewrite He' in Rxd; cbn [negb] in Rxd; congruence].
    - split; [exact P|]. split; [exact Q|].
      assert (AL : rcv_ended (rcv_t (de s)) = false) by (rewrite T in Txd; now destruct (rcv_ended (rcv_t (de s)))).
      split; [|exact AL].
      destruct RD as [_ Hw | m Hm Ho | He']; [exact Hw | exfalso; apply (Ne _ Ho); exact Q | congruence].
    - exfalso. destruct SD as [_ _ T | m Hm Fu | He']; [| now apply NF2 | congruence].
      rewrite (d_txa _ DI), P in T; [discriminate T | rewrite P; reflexivity].
    - exfalso. rewrite (d_left _ DI) in Al; [discriminate Al | rewrite P; reflexivity].
    - exfalso. now apply NF2. }
  destruct DL as (P & Q & W1 & DRA).
  (* 3. the boss's sending thread holds nothing and has not failed *)
  assert (NF1 : ~ full c (b2d s)) by (intros [_ X]; now apply X).
  assert (BS : snd_t (be s) <> SErr /\ sheld (snd_t (be s)) ++ q (outc (be s)) = []).
  { split; [intros Z; rewrite (FB Z) in U4; discriminate U4|].
    destruct SB as [I Qo _ | m Hm Fu | He']; [rewrite I, Qo; reflexivity | exfalso; now apply NF1 |].
    destruct (snd_t (be s)) eqn:St; try discriminate He'.
    - destruct (Dnb eq_refl) as [-> _]. reflexivity.
    - exfalso. rewrite (FB eq_refl) in U4. discriminate U4. }
  destruct BS as (BS1 & BS2).
  (* 4. the pipeline boss->doer is exact and empty: the doer has taken everything, the Shutdown included *)
  destruct (H2 DRA) as (r2 & E2 & H3). rewrite W1 in *. cbn [wpre allgood forallb] in *.
  specialize (H3 eq_refl BS1). rewrite BS2 in H3. subst r2.
  assert (RH : rheld (rcv_t (de s)) = []).
  { destruct RD as [I _ | m Hm Ho | He']; [rewrite I; reflexivity | exfalso; apply (Ne _ Ho); exact Q | congruence]. }
  rewrite RH in E2. cbn [app] in E2. subst r1. rewrite Q, !app_nil_r in E1.
  destruct (b_shut _ BI) as [Y|Y]; [destruct PC as [-> | ->]; reflexivity | | contradiction].
  rewrite E1 in Y. apply (d_noshut _ DI); [rewrite P; reflexivity | exact Y].
Qed.
