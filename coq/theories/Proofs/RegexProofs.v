(* The executable matcher computes the relational semantics (so the fuel |s| used for unbounded
   repetition is sufficient), and the two derived predicates are what they say. *)
From RJ Require Import Base.Prelude Model.Regex.
Local Open Scope nat_scope.

Lemma dedup_In l x : In x (dedup l) <-> In x l.
Proof. unfold dedup. apply nodup_In. Qed.

Lemma ipow_app (R : nat -> nat -> Prop) a b i m j : ipow R a i m -> ipow R b m j -> ipow R (a + b) i j.
Proof.
  intros H; revert j. induction H as [i|k i x l Hr Hp IH]; intros j Hb; cbn [Nat.add]; auto.
  econstructor; eauto.
Qed.

Lemma ipow_split (R : nat -> nat -> Prop) a : forall b i j, ipow R (a + b) i j -> exists m, ipow R a i m /\ ipow R b m j.
Proof.
  induction a as [|a IH]; cbn [Nat.add]; intros b i j H.
  - exists i; split; [constructor | exact H].
  - inversion H as [|k i' x l Hr Hp]; subst. destruct (IH _ _ _ Hp) as (m & H1 & H2).
    exists m; split; auto. econstructor; eauto.
Qed.

Lemma ipow_range (R : nat -> nat -> Prop) n :
  (forall i j, R i j -> i <= j /\ j <= Nat.max i n) ->
  forall k i j, ipow R k i j -> i <= j /\ j <= Nat.max i n.
Proof.
  intros HR k i j H. induction H as [i|k i x l Hr Hp IH]; [lia|].
  apply HR in Hr. lia.
Qed.

(* empty iterations can be dropped: at most j - i productive rounds are needed *)
Lemma ipow_short (R : nat -> nat -> Prop) :
  (forall i j, R i j -> i <= j) ->
  forall k i j, ipow R k i j -> i <= j /\ exists k', k' <= j - i /\ ipow R k' i j.
Proof.
  intros HR k i j H. induction H as [i|k i x l Hr Hp (Hle & k' & Hk & Hp')].
  - split; [lia|]. exists 0; split; [lia | constructor].
  - pose proof (HR _ _ Hr) as Hix. split; [lia|].
    destruct (Nat.eq_dec x i) as [->|Hne].
    + exists k'; split; [lia | exact Hp'].
    + exists (S k'); split; [lia|]. econstructor; eauto.
Qed.

Section Iter.
  Variable R : nat -> nat -> Prop.
  Variable f : nat -> list nat.
  Hypothesis Hf : forall i j, In j (f i) <-> R i j.

  Lemma sstep_In X j : In j (sstep f X) <-> exists i, In i X /\ R i j.
  Proof.
    unfold sstep. rewrite dedup_In, in_flat_map.
    split; intros (i & Hi & H); exists i; split; auto; now apply Hf.
  Qed.

  Lemma iter_step_In k : forall X j, In j (iter_step f k X) <-> exists i, In i X /\ ipow R k i j.
  Proof.
    induction k as [|k IH]; cbn [iter_step]; intros X j.
    - split.
      + intros H; exists j; split; auto; constructor.
      + intros (i & Hi & Hp). inversion Hp; subst. auto.
    - rewrite IH. split.
      + intros (m & Hm & Hp). apply sstep_In in Hm as (i & Hi & Hr). exists i; split; auto. econstructor; eauto.
      + intros (i & Hi & Hp). inversion Hp as [|k' i' x l Hr Hp']; subst. exists x. split; auto. apply sstep_In. eauto.
  Qed.

  Lemma upto_In d : forall X j, In j (upto f d X) <-> exists k i, k <= d /\ In i X /\ ipow R k i j.
  Proof.
    induction d as [|d IH]; cbn [upto]; intros X j.
    - split.
      + intros H. exists 0, j. repeat split; auto. constructor.
      + intros (k & i & Hk & Hi & Hp). assert (k = 0) by lia; subst. inversion Hp; subst; auto.
    - rewrite in_app_iff, IH. split.
      + intros [H | (k & m & Hk & Hm & Hp)].
        * exists 0, j. repeat split; auto; try lia. constructor.
        * apply sstep_In in Hm as (i & Hi & Hr). exists (S k), i. repeat split; auto; try lia. econstructor; eauto.
      + intros (k & i & Hk & Hi & Hp). destruct k as [|k].
        * inversion Hp; subst. left; auto.
        * inversion Hp as [|k' i' x l Hr Hp']; subst. right. exists k, x. repeat split; auto; try lia. apply sstep_In; eauto.
  Qed.

  (* lo rounds, then up to d more *)
  Lemma rep_In lo d i j :
    In j (upto f d (iter_step f lo [i])) <-> exists k, lo <= k <= lo + d /\ ipow R k i j.
  Proof.
    rewrite upto_In. split.
    - intros (k & m & Hk & Hm & Hp). apply iter_step_In in Hm as (i0 & [<-|[]] & Hq).
      exists (lo + k). split; [lia | eapply ipow_app; eauto].
    - intros (k & Hk & Hp). replace k with (lo + (k - lo)) in Hp by lia. apply ipow_split in Hp as (m & H1 & H2).
      exists (k - lo), m. repeat split; [lia | apply iter_step_In; exists i; split; [left; reflexivity | exact H1] | exact H2].
  Qed.
End Iter.

Lemma mt_Eps_iff s i j : mt s Eps i j <-> j = i.
Proof. split; [inversion 1; reflexivity | intros ->; constructor]. Qed.
Lemma mt_Chr_iff s c i j : mt s (Chr c) i j <-> j = S i /\ exists a, nth_error s i = Some a /\ cls_mem c a = true.
Proof. split; [inversion 1; eauto | intros (-> & a & E & M); econstructor; eauto]. Qed.
Lemma mt_Bol_iff s i j : mt s Bol i j <-> i = 0 /\ j = 0.
Proof. split; [inversion 1; auto | intros [-> ->]; constructor]. Qed.
Lemma mt_Eol_iff s i j : mt s Eol i j <-> i = length s /\ j = length s.
Proof. split; [inversion 1; auto | intros [-> ->]; constructor]. Qed.
Lemma mt_Cat_iff s a b i k : mt s (Cat a b) i k <-> exists j, mt s a i j /\ mt s b j k.
Proof. split; [inversion 1; eauto | intros (j & Ha & Hb); econstructor; eauto]. Qed.
Lemma mt_Alt_iff s a b i j : mt s (Alt a b) i j <-> mt s a i j \/ mt s b i j.
Proof. split; [inversion 1; auto | intros [H|H]; [apply MAltL | apply MAltR]; exact H]. Qed.
Lemma mt_Rep_iff s r lo hi i j : mt s (Rep r lo hi) i j <-> exists k, lo <= k /\ hi_ok hi k /\ ipow (mt s r) k i j.
Proof. split; [inversion 1; eauto | intros (k & Hlo & Hhi & Hp); econstructor; eauto]. Qed.
Lemma mt_Group_iff s r i j : mt s (Group r) i j <-> mt s r i j.
Proof. split; [inversion 1; assumption | apply MGroup]. Qed.

Lemma mt_range s r : forall i j, mt s r i j -> i <= j /\ j <= Nat.max i (length s).
Proof.
  induction r as [|c| | |a IHa b IHb|a IHa b IHb|r IH lo hi|r IH]; intros i j H.
  - apply mt_Eps_iff in H. lia.
  - apply mt_Chr_iff in H as (-> & a & E & _). assert (i < length s) by (apply nth_error_Some; congruence). lia.
  - apply mt_Bol_iff in H. lia.
  - apply mt_Eol_iff in H. lia.
  - apply mt_Cat_iff in H as (m & Ha & Hb). apply IHa in Ha. apply IHb in Hb. lia.
  - apply mt_Alt_iff in H as [H|H]; [apply IHa in H | apply IHb in H]; lia.
  - apply mt_Rep_iff in H as (k & _ & _ & Hp). eapply ipow_range; eauto.
  - apply -> mt_Group_iff in H. auto.
Qed.

Theorem ends_correct s r : forall i j, In j (ends r s i) <-> mt s r i j.
Proof.
  induction r as [|c| | |a IHa b IHb|a IHa b IHb|r IH lo hi|r IH]; intros i j; cbn [ends].
  - rewrite mt_Eps_iff. cbn. intuition.
  - rewrite mt_Chr_iff. destruct (nth_error s i) as [x|]; [destruct (cls_mem c x) eqn:M|]; cbn [In].
    + split; [intros [<-|[]]; eauto | intros [-> _]; auto].
    + split; [intros [] | intros (_ & a & [= <-] & M'); congruence].
    + split; [intros [] | intros (_ & a & E & _); discriminate].
  - rewrite mt_Bol_iff. destruct (Nat.eqb_spec i 0) as [->|Hne]; cbn; intuition.
  - rewrite mt_Eol_iff. destruct (Nat.eqb_spec i (length s)) as [->|Hne]; cbn; intuition.
  - rewrite mt_Cat_iff, dedup_In, in_flat_map. split; intros (m & H1 & H2); exists m; split; (apply IHa || apply IHb); assumption.
  - rewrite mt_Alt_iff, in_app_iff, IHa, IHb. reflexivity.
  - rewrite mt_Rep_iff. destruct hi as [h|]; [destruct (Nat.ltb_spec h lo) as [Hlt|Hge]|];
      rewrite ?dedup_In, ?(rep_In (mt s r) (ends r s) IH); cbn [hi_ok].
    + split; [intros [] | intros (k & Hlo & Hhi & _); lia].
    + split; intros (k & Hk & Hp); exists k; repeat split; (lia || apply Hp).
    + split; [intros (k & Hk & Hp); exists k; repeat split; (lia || exact Hp)|].
      (* empty rounds can be dropped, so at most |s| rounds beyond the first lo are needed *)
      intros (k & Hlo & _ & Hp). replace k with (lo + (k - lo)) in Hp by lia. apply ipow_split in Hp as (m & H1 & H2).
      destruct (ipow_short (mt s r) (fun a b Hab => proj1 (mt_range s r a b Hab)) _ _ _ H2) as (Hmj & k' & Hk' & Hp').
      pose proof (ipow_range (mt s r) (length s) (mt_range s r) _ _ _ H2) as Hr2.
      exists (lo + k'). split; [lia | eapply ipow_app; eauto].
  - rewrite mt_Group_iff. apply IH.
Qed.

Theorem fullmatch_correct r s : fullmatch r s = true <-> matches_whole r s.
Proof.
  unfold fullmatch, matches_whole. rewrite existsb_exists. split.
  - intros (j & Hj & E). apply Nat.eqb_eq in E. subst j. apply ends_correct. exact Hj.
  - intros H. exists (length s). split; [apply ends_correct; exact H | apply Nat.eqb_refl].
Qed.

Lemma nonempty_In {A} (l : list A) : nonempty l = true <-> exists x, In x l.
Proof.
  destruct l as [|a l]; cbn [nonempty]; split.
  - discriminate.
  - intros (x & []).
  - intros _; exists a; left; reflexivity.
  - reflexivity.
Qed.

Theorem search_correct r s : search r s = true <-> matches_somewhere r s.
Proof.
  unfold search, matches_somewhere. rewrite existsb_exists. split.
  - intros (i & Hi & Hn). apply in_seq in Hi. apply nonempty_In in Hn as (j & Hj).
    exists i, j. split; [lia | apply ends_correct; exact Hj].
  - intros (i & j & Hi & H). exists i. split; [apply in_seq; lia|].
    apply nonempty_In. exists j. apply ends_correct. exact H.
Qed.

(* AST-level anchoring: a search for ^(r)$ is a whole-text match of r *)
Lemma anchored_somewhere_iff_whole r s :
  matches_somewhere (cats [Bol; Group r; Eol]) s <-> matches_whole r s.
Proof.
  unfold matches_somewhere, matches_whole, cats; cbn [fold_right]. split.
  - intros (i & j & Hi & H).
    apply mt_Cat_iff in H as (j1 & Hb & H). apply mt_Bol_iff in Hb as [-> ->].
    apply mt_Cat_iff in H as (j2 & Hg & H). apply -> mt_Group_iff in Hg.
    apply mt_Cat_iff in H as (j3 & He & H). apply mt_Eol_iff in He as [-> ->]. exact Hg.
  - intros H. exists 0, (length s). split; [lia|].
    econstructor; [constructor|]. econstructor; [constructor; exact H|].
    econstructor; constructor.
Qed.

Theorem search_anchored_is_fullmatch r s : search (cats [Bol; Group r; Eol]) s = fullmatch r s.
Proof.
  apply eq_true_iff_eq. rewrite search_correct, fullmatch_correct. apply anchored_somewhere_iff_whole.
Qed.
