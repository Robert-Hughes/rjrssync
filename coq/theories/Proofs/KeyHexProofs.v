(* Round trip of the key codec: what the doer parses is what the boss printed, for every key. *)
From RJ Require Import Base.Prelude Model.KeyHex.
Local Open Scope N_scope.

Definition bytes_ok (k : list N) : Prop := Forall (fun b => b < 256) k.

Lemma digit_val_hex_char (n : N) : n < 16 -> digit_val (hex_char n) = Some n.
Proof.
  intros H. unfold digit_val, hex_char.
  destruct (n <? 10) eqn:E.
  - rewrite N_ascii_embedding by lia.
    replace ((48 <=? 48 + n) && (48 + n <=? 57)) with true by lia.
    f_equal. lia.
  - rewrite N_ascii_embedding by lia.
    replace ((48 <=? 87 + n) && (87 + n <=? 57)) with false by lia.
    replace ((97 <=? 87 + n) && (87 + n <=? 102)) with true by lia.
    f_equal. lia.
Qed.

Lemma hex_char_not_plus (n : N) : n < 16 -> Ascii.eqb (hex_char n) "+"%char = false.
Proof.
  intros H. apply Ascii.eqb_neq. intros E.
  apply (f_equal N_of_ascii) in E. unfold hex_char in E.
  destruct (n <? 10) eqn:L; rewrite N_ascii_embedding in E by lia; cbn in E; lia.
Qed.

Lemma be_val_ge (k : list N) : forall acc, acc <= be_val acc k.
Proof.
  induction k as [|b k IH]; intros acc; cbn [be_val fold_left].
  - lia.
  - specialize (IH (acc * 256 + b)). unfold be_val in IH. lia.
Qed.

Lemma be_val_cons acc b k : be_val acc (b :: k) = be_val (acc * 256 + b) k.
Proof. reflexivity. Qed.

(* Parsing the printed form of [k] continues the accumulator exactly, as long as the final value
   fits in 128 bits (then so does every intermediate value). *)
Lemma parse_digits_print (k : list N) : forall acc rest,
  bytes_ok k -> be_val acc k < u128_limit ->
  parse_digits acc (print_hex k ++ rest) = parse_digits (be_val acc k) rest.
Proof.
  induction k as [|b k IH]; intros acc rest Hk Hlim.
  - reflexivity.
  - inversion Hk as [|b' k' Hb Hk']; subst.
    rewrite be_val_cons in Hlim |- *.
    pose proof (be_val_ge k (acc * 256 + b)) as Hge.
    unfold print_hex. cbn [flat_map print_byte app].
    cbn [parse_digits].
    rewrite digit_val_hex_char by lia.
    cbv zeta.
    replace (acc * 16 + b / 16 <? u128_limit) with true by (unfold u128_limit in *; lia).
    cbn [parse_digits].
    rewrite digit_val_hex_char by lia.
    cbv zeta.
    replace ((acc * 16 + b / 16) * 16 + b mod 16) with (acc * 256 + b) by lia.
    replace (acc * 256 + b <? u128_limit) with true by (unfold u128_limit in *; lia).
    apply IH; assumption.
Qed.

Lemma be_val_bound (k : list N) : forall acc,
  bytes_ok k -> be_val acc k < (acc + 1) * 256 ^ (N.of_nat (length k)).
Proof.
  induction k as [|b k IH]; intros acc Hk.
  - cbn. lia.
  - inversion Hk as [|b' k' Hb Hk']; subst.
    rewrite be_val_cons. specialize (IH (acc * 256 + b) Hk').
    cbn [length]. rewrite Nat2N.inj_succ, N.pow_succ_r'.
    assert (H1 : (acc * 256 + b + 1) * 256 ^ N.of_nat (length k)
                 <= (acc + 1) * 256 * 256 ^ N.of_nat (length k)).
    { apply N.mul_le_mono_r. lia. }
    lia.
Qed.

Lemma be_val_snoc acc k b : be_val acc (k ++ [b]) = be_val acc k * 256 + b.
Proof. unfold be_val. rewrite fold_left_app. reflexivity. Qed.

(* to_be_bytes cuts the value to its [length k] low bytes, which are exactly [k] whatever came before. *)
Lemma be_bytes_be_val (k : list N) : forall acc,
  bytes_ok k -> be_bytes (length k) (be_val acc k) = k.
Proof.
  induction k as [|b k IH] using rev_ind; intros acc Hk.
  - reflexivity.
  - apply Forall_app in Hk as [Hk Hb]. inversion Hb as [|b' x Hb256 _]; subst.
    rewrite be_val_snoc, app_length. cbn [length]. rewrite Nat.add_1_r.
    cbn [be_bytes].
    replace ((be_val acc k * 256 + b) / 256) with (be_val acc k) by lia.
    replace ((be_val acc k * 256 + b) mod 256) with b by lia.
    rewrite IH by assumption. reflexivity.
Qed.

Lemma print_hex_length (k : list N) : length (print_hex k) = (2 * length k)%nat.
Proof. induction k as [|b k IH]; cbn [print_hex flat_map print_byte app length] in *; [reflexivity|]. unfold print_hex in IH. lia. Qed.

Lemma from_str_radix16_print (k : list N) :
  k <> [] -> bytes_ok k -> be_val 0 k < u128_limit ->
  from_str_radix16 (print_hex k) = Some (be_val 0 k).
Proof.
  intros Hne Hk Hlim. destruct k as [|b k]; [contradiction|].
  pose proof (parse_digits_print (b :: k) 0 [] Hk Hlim) as P. rewrite app_nil_r in P.
  cbn [parse_digits] in P.
  inversion Hk as [|b' k' Hb Hk']; subst.
  unfold from_str_radix16.
  change (print_hex (b :: k)) with (hex_char (b / 16) :: hex_char (b mod 16) :: print_hex k) in *.
  cbv beta iota. rewrite hex_char_not_plus by lia. exact P.
Qed.

(* C15: the doer reconstructs the key bit-exactly, whatever its value. *)
Lemma key_roundtrip (k : list N) :
  length k = 16%nat -> bytes_ok k -> parse_hex_u128_be (print_hex k) = Some k.
Proof.
  intros Hlen Hk. unfold parse_hex_u128_be.
  assert (Hlim : be_val 0 k < u128_limit).
  { pose proof (be_val_bound k 0 Hk) as B. rewrite Hlen in B. unfold u128_limit.
    change (256 ^ N.of_nat 16) with 340282366920938463463374607431768211456 in B. lia. }
  rewrite from_str_radix16_print; try assumption.
  - cbn [option_map]. f_equal. rewrite <- Hlen. apply be_bytes_be_val. exact Hk.
  - intros ->. discriminate.
Qed.

(* ... and through the line protocol: boss appends '\n', doer pops it. *)
Lemma key_line_roundtrip (k : list N) :
  length k = 16%nat -> bytes_ok k -> doer_key_of_line (key_line k) = Some k.
Proof.
  intros Hlen Hk. unfold doer_key_of_line, key_line, pop_last.
  rewrite removelast_last. apply key_roundtrip; assumption.
Qed.

Lemma key_print_width (k : list N) : length k = 16%nat -> length (print_hex k) = 32%nat.
Proof. intros H. rewrite print_hex_length, H. reflexivity. Qed.

(* Different keys give different lines (so "newly generated" keys are visibly different on the wire). *)
Lemma print_hex_injective (k1 k2 : list N) :
  length k1 = 16%nat -> length k2 = 16%nat -> bytes_ok k1 -> bytes_ok k2 ->
  print_hex k1 = print_hex k2 -> k1 = k2.
Proof.
  intros L1 L2 B1 B2 E.
  pose proof (key_roundtrip k1 L1 B1) as R1. pose proof (key_roundtrip k2 L2 B2) as R2.
  rewrite E in R1. congruence.
Qed.
