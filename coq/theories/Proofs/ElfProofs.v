(* ELF64: the shape of the file produced by the fixed add_section_to_elf, the round trip
   add -> extract, and what is preserved of the original file. *)
From RJ Require Import Base.Prelude Model.LE Model.Elf Proofs.LEProofs Proofs.ExeLemmas.
Local Open Scope N_scope.

Definition e_shoff bs := fieldN bs 40 8.
Definition e_shentsize bs := fieldN bs 58 2.
Definition e_shnum bs := fieldN bs 60 2.
Definition e_shstrndx bs := fieldN bs 62 2.
(* field [o] (width [sz]) of section header [idx] *)
Definition sh_field bs idx o sz := fieldN bs (e_shoff bs + idx * e_shentsize bs + o) sz.
Definition names_off bs := sh_field bs (e_shstrndx bs) 24 8.
Definition names_size bs := sh_field bs (e_shstrndx bs) 32 8.
(* the name of section [idx] as extract_section_from_elf reads it *)
Definition sec_name bs idx := read_string bs (names_off bs + sh_field bs idx 0 4) 32.

(* Well-formedness the round trip needs beyond what a successful add already implies
   (magic, 64-bit, LE, v1; section header table at the end of the file with
   e_shoff + e_shnum * e_shentsize = |e|; e_shentsize >= 40; e_shstrndx < e_shnum; the name table
   inside the part of the file before the section header table):
   the name table starts after the ELF header, is not empty and ends with NUL, and every section's
   sh_name points into it. *)
Definition wf_elf (e : list byte) : Prop :=
  64 <= names_off e /\ 1 <= names_size e /\
  subN e (names_off e + names_size e - 1) 1 = [zero] /\
  (forall idx, idx < e_shnum e -> sh_field e idx 0 4 < names_size e).

Definition has_section (e name : list byte) : Prop :=
  exists idx, idx < e_shnum e /\ sec_name e idx = Ok name.

(* read_string stops after 32 bytes: a longer name would never compare equal *)
Definition name_ok (name : list byte) : Prop := ~ In zero name /\ lenN name <= 32.

Lemma validate_elf_ok m e : validate_elf true m e = Ok tt -> 7 <= lenN e.
Proof.
  unfold validate_elf. intros H.
  invb H E1 v1. invc H C1. invb H E2 v2. invc H C2. invb H E3 v3. invc H C3. invb H E4 v4.
  apply read_field_ok in E4 as (L & _). lia.
Qed.

(* validation looks only at the first 7 bytes *)
Lemma validate_elf_prefix m m' e e' : subN e' 0 7 = subN e 0 7 -> 7 <= lenN e -> 7 <= lenN e' ->
  validate_elf true m' e' = validate_elf true m e.
Proof.
  intros P L L'. unfold validate_elf.
  assert (F : forall o sz, o + N.of_nat sz <= 7 -> read_field true m' sz e' o = read_field true m sz e o).
  { intros o sz Hs. apply read_field_ext; [lia|].
    rewrite <- (subN_subN e' 0 7 o), <- (subN_subN e 0 7 o), P by lia. reflexivity. }
  rewrite (F 0 4%nat), (F 4 1%nat), (F 5 1%nat), (F 6 1%nat) by lia. reflexivity.
Qed.

Lemma mul_lt_from_le a b c : a * c + 1 <= b * c -> a < b.
Proof.
  intros H. destruct (N.lt_ge_cases a b) as [L|G]; [exact L|].
  pose proof (N.mul_le_mono_r b a c G). lia.
Qed.

Lemma sh_field_tab e idx o sz :
  fieldN (dropN (e_shoff e) e) (idx * e_shentsize e + o) sz = sh_field e idx o sz.
Proof. rewrite fieldN_dropN. unfold sh_field. f_equal. lia. Qed.

(* the range [o, o+n) of the section header table avoids sh_offset of the rows behind row sx *)
Definition off_cols (se sx shnum o n : N) : Prop :=
  forall j, sx < j < shnum -> o + n <= j * se + 24 \/ j * se + 32 <= o.

(* the section header table after sh_size of the names section (row sx) is set to [v] and sh_offset of
   the rows behind it is bumped by [k] *)
Lemma elf_new_tab m sht se sx shnum k v sht2 :
  lenN sht = shnum * se -> 40 <= se -> sx < shnum -> v < 18446744073709551616 ->
  bump_offsets true m (updN sht (sx * se + 32) (encode_le 8 v)) se k (sx + 1) (N.to_nat (shnum - (sx + 1))) = Ok sht2 ->
  lenN sht2 = shnum * se /\
  (forall o n, off_cols se sx shnum o n -> (o + n <= sx * se + 32 \/ sx * se + 40 <= o) -> subN sht2 o n = subN sht o n) /\
  fieldN sht2 (sx * se + 32) 8 = v /\
  (forall j, sx < j < shnum -> fieldN sht2 (j * se + 24) 8 = fieldN sht (j * se + 24) 8 + k).
Proof.
  intros LS SE SX V H.
  assert (R : forall i j, i < j -> i * se + se <= j * se) by (intros; now apply row_le).
  pose proof (R sx shnum SX).
  apply (bump_spec m 18446744073709551616 8 (fun j => j * se + 24) k
           (fun bs i c => bump_offsets true m bs se k i c)) in H as (L & F & C);
    [ | reflexivity | reflexivity | lia | intros i j Hij; specialize (R i j Hij); lia ].
  rewrite N2Nat.id in F, C. replace (sx + 1 + (shnum - (sx + 1))) with shnum in F, C by lia.
  split; [rewrite L; len|]. split; [|split].
  - intros o n D1 D2. rewrite F by (intros j Hj; specialize (D1 j); lia). apply subN_updN_disj; len.
  - unfold fieldN. rewrite F by (intros j Hj; specialize (R sx j); lia). apply fieldN_put; lia.
  - intros j Hj. rewrite C by lia. f_equal. specialize (R sx j). apply fieldN_updN_disj; len.
Qed.

(* the header of the new section: sh_name, sh_type, sh_offset, sh_size written into zeros *)
Lemma elf_new_hdr se a b c h : 40 <= se -> a < 4294967296 -> b < 18446744073709551616 -> c < 18446744073709551616 ->
  h = updN (updN (updN (updN (zerosN se) 0 (encode_le 4 a)) 4 (encode_le 4 2147483648)) 24 (encode_le 8 b)) 32 (encode_le 8 c) ->
  lenN h = se /\ fieldN h 0 4 = a /\ fieldN h 24 8 = b /\ fieldN h 32 8 = c.
Proof.
  intros SE Ha Hb Hc ->.
  (* the intermediate headers by name, each of length se: lengths are then read off, not recomputed *)
  set (h1 := updN (zerosN se) 0 _). set (h2 := updN h1 4 _). set (h3 := updN h2 24 _).
  assert (L1 : lenN h1 = se) by (unfold h1; len). assert (L2 : lenN h2 = se) by (unfold h2; len).
  assert (L3 : lenN h3 = se) by (unfold h3; len).
  split; [len|]. split; [|split].
  - rewrite fieldN_updN_disj by len. unfold h3. rewrite fieldN_updN_disj by len.
    unfold h2. rewrite fieldN_updN_disj by len. apply fieldN_put; len.
  - rewrite fieldN_updN_disj by len. apply fieldN_put; len.
  - apply fieldN_put; len.
Qed.

(* [sht2]: the old section header table with the fields above adjusted; [hdr4]: the new section's header *)
Record elf_shape (m : mode) (e name p sht2 hdr4 : list byte) : Prop := {
  es_valid : validate_elf true m e = Ok tt;
  es_len64 : 64 <= lenN e;
  es_len : lenN e = e_shoff e + e_shnum e * e_shentsize e;
  es_names : names_off e + names_size e <= e_shoff e;
  es_entsize : 40 <= e_shentsize e;
  es_strndx : e_shstrndx e < e_shnum e;
  es_nsz32 : names_size e < 4294967296;
  es_shnum16 : e_shnum e + 1 < 65536;
  es_tab_len : lenN sht2 = e_shnum e * e_shentsize e;
  es_hdr_len : lenN hdr4 = e_shentsize e;
  es_tab_frame : forall o n, off_cols (e_shentsize e) (e_shstrndx e) (e_shnum e) o n ->
    (o + n <= e_shstrndx e * e_shentsize e + 32 \/ e_shstrndx e * e_shentsize e + 40 <= o) ->
    subN sht2 o n = subN e (e_shoff e + o) n;
  es_tab_nsz : fieldN sht2 (e_shstrndx e * e_shentsize e + 32) 8 = names_size e + (lenN name + 1);
  es_tab_off : forall j, e_shstrndx e < j < e_shnum e ->
    fieldN sht2 (j * e_shentsize e + 24) 8 = sh_field e j 24 8 + (lenN name + 1);
  es_hdr_name : fieldN hdr4 0 4 = names_size e;
  es_hdr_off : fieldN hdr4 24 8 = e_shoff e + (lenN name + 1);
  es_hdr_size : fieldN hdr4 32 8 = lenN p }.

Definition elf_file (e name p sht2 hdr4 : list byte) : list byte :=
  updN (updN (insN (takeN (e_shoff e) e) (names_off e + names_size e) (name ++ [zero]) ++ p ++ sht2 ++ hdr4)
             40 (encode_le 8 (e_shoff e + (lenN name + 1) + lenN p))) 60 (encode_le 2 (e_shnum e + 1)).

Lemma add_elf_shape m e name p e' : add_elf m e name p = Ok e' ->
  lenN e + (lenN name + 1) + lenN p < 18446744073709551616 ->
  exists sht2 hdr4, elf_shape m e name p sht2 hdr4 /\ e' = elf_file e name p sht2 hdr4.
Proof.
  intros H FIT. unfold add_elf, add_elf_gen in H.
  replace (flen (name ++ [zero])) with (lenN name + 1) in H by (rewrite flen_eq; len).
  invb H Hv u. destruct u.
  invb H E1 shoff. invb H E2 se. invb H E3 shnum. invb H E4 sx.
  apply read_field_ok in E1 as (L1 & _ & X1). apply read_field_ok in E2 as (_ & _ & X2).
  apply read_field_ok in E3 as (_ & _ & X3). apply read_field_ok in E4 as (L4 & _ & X4).
  fold (e_shoff e) in X1. fold (e_shentsize e) in X2. fold (e_shnum e) in X3. fold (e_shstrndx e) in X4.
  subst shoff se shnum sx.
  invb H E5 tot. apply uadd_ok in E5 as (-> & _).
  invc H C1. invc H C2. cbv zeta in H. rewrite flen_eq in C1, C2.
  assert (LT : lenN (dropN (e_shoff e) e) = e_shnum e * e_shentsize e) by len.
  invb H E6 noff. invb H E7 nsz.
  apply read_field_ok in E6 as (_ & _ & X6). apply read_field_ok in E7 as (L7 & _ & X7).
  rewrite sh_field_tab in X6, X7. fold (names_off e) in X6. fold (names_size e) in X7. subst noff nsz.
  assert (SX : e_shstrndx e < e_shnum e) by (apply (mul_lt_from_le _ _ (e_shentsize e)); lia).
  invb H E8 pos. apply uadd_ok in E8 as (-> & _).
  invb H E9 body1. apply splice_ok in E9 as (L9 & ->).
  invb H E10 nsz'. apply uadd_ok in E10 as (-> & B10).
  invb H E11 sht1. apply write_field_inv in E11 as (_ & -> & _).
  invb H E12 sht2.
  invb H E13 nsz32. apply ucast_ok in E13 as (-> & B13).
  invb H E14 hdr1. apply write_field_inv in E14 as (_ & X14 & LL14).
  invb H E15 hdr2. apply write_field_inv in E15 as (_ & X15 & LL15).
  invb H E16 hdr3. apply write_field_inv in E16 as (_ & X16 & LL16).
  invb H E17 hdr4. apply write_field_inv in E17 as (L17 & X17 & _).
  assert (SE : 40 <= e_shentsize e) by (rewrite lenN_zerosN in LL14; lia).
  subst hdr1 hdr2 hdr3. clear LL14 LL15 LL16 L17.
  invb H E18 bs2. apply write_field_inv in E18 as (_ & -> & _).
  invb H E19 n16. apply ucast_ok in E19 as (-> & B19).
  apply write_field_inv in H as (_ & -> & _).
  assert (LB : lenN (insN (takeN (e_shoff e) e) (names_off e + names_size e) (name ++ [zero]))
               = e_shoff e + (lenN name + 1)) by len.
  rewrite !flen_eq, LB in X17. rewrite !flen_eq, lenN_app, LB.
  destruct (elf_new_tab _ _ _ _ _ _ _ _ LT SE SX B10 E12) as (T1 & T2 & T3 & T4).
  assert (B16 : e_shoff e + (lenN name + 1) < 18446744073709551616) by lia.
  assert (B17 : lenN p < 18446744073709551616) by lia.
  destruct (elf_new_hdr _ _ _ _ _ SE B13 B16 B17 X17) as (H1 & H2 & H3 & H4).
  exists sht2, hdr4. split.
  - constructor; try assumption; try lia.
    + rewrite lenN_takeN in L9. lia.
    + intros o n D1 D2. rewrite T2, subN_dropN by assumption. reflexivity.
    + intros j Hj. rewrite T4, sh_field_tab by exact Hj. reflexivity.
  - unfold elf_file. now rewrite <- !app_assoc.
Qed.

(* [X] with [ins] inserted at [pos] and [tl] appended, then patched with [A] at [a] and with [B] at [b],
   both below [pos]: the form of elf_file *)
Section Inserted.
Variables (X ins tl A B : list byte) (pos a b : N).
Hypotheses (PX : pos <= lenN X) (AB : a + lenN A <= b) (BP : b + lenN B <= pos).
Let f := updN (updN (insN X pos ins ++ tl) a A) b B.
Let Hd := updN (updN (takeN pos X) a A) b B.

Lemma ins_nf : f = Hd ++ ins ++ dropN pos X ++ tl.
Proof. unfold f, Hd, insN. rewrite <- !app_assoc, !updN_app_l by len. reflexivity. Qed.

Lemma ins_len : lenN f = lenN X + lenN ins + lenN tl.
Proof. rewrite ins_nf. unfold Hd. len. Qed.

Lemma ins_low o n : o + n <= pos -> o + n <= a \/ a + lenN A <= o -> o + n <= b \/ b + lenN B <= o ->
  subN f o n = subN X o n.
Proof.
  intros. rewrite ins_nf, subN_app_l by (unfold Hd; len). unfold Hd.
  rewrite !subN_updN_disj by len. apply subN_takeN. lia.
Qed.

Lemma ins_A sz v : A = encode_le sz v -> v < 256 ^ N.of_nat sz -> fieldN f a sz = v.
Proof.
  intros E V. unfold fieldN. rewrite <- (lenN_encode sz v), <- E.
  rewrite ins_nf, subN_app_l by (unfold Hd; len). unfold Hd.
  rewrite subN_updN_disj, subN_updN_same, E by len. now apply decode_encode_small.
Qed.

Lemma ins_B sz v : B = encode_le sz v -> v < 256 ^ N.of_nat sz -> fieldN f b sz = v.
Proof.
  intros E V. unfold fieldN. rewrite <- (lenN_encode sz v), <- E.
  rewrite ins_nf, subN_app_l by (unfold Hd; len). unfold Hd.
  rewrite subN_updN_same, E by len. now apply decode_encode_small.
Qed.

Lemma ins_at : dropN pos f = ins ++ dropN pos X ++ tl.
Proof. rewrite ins_nf. replace pos with (lenN Hd) at 1 by (unfold Hd; len). apply dropN_app_exact. Qed.
End Inserted.

(* [f] has a section header table of rows 0..n at [tab]; the name of no row below n is [name], the name
   of row n is, and row n points at [p]. *)
Section ElfRun.
Variables (m : mode) (f name p : list byte) (tab se n noff : N).
Hypothesis LF : tab + n * se + se <= lenN f.
Hypothesis B64 : lenN f < 18446744073709551616.
Hypothesis SE : 40 <= se.
Hypothesis OLD : forall j, j < n ->
  exists s, read_string f (noff + fieldN f (tab + j * se) 4) 32 = Ok s /\ s <> name.
Hypothesis NEW : read_string f (noff + fieldN f (tab + n * se) 4) 32 = Ok name.
Hypothesis OFF : fieldN f (tab + n * se + 24) 8 <= lenN f.
Hypothesis GET : subN f (fieldN f (tab + n * se + 24) 8) (fieldN f (tab + n * se + 32) 8) = p.

Lemma elf_loop_last : forall i, i <= n ->
  extract_elf_loop true m f name tab se noff i (N.to_nat (n + 1 - i)) = Ok p.
Proof.
  apply N_down_ind.
  - replace (N.to_nat (n + 1 - n)) with 1%nat by lia. cbn [extract_elf_loop].
    pose proof (read_string_lt _ _ _ _ NEW).
    rewrite uadd_eq by lia. cbn [obind]. rewrite read_field_eq by lia. cbn [obind].
    rewrite uadd_eq by lia. cbn [obind]. rewrite NEW. cbn [obind]. rewrite str_eqb_refl.
    rewrite uadd_eq by lia. cbn [obind]. rewrite read_field_eq by lia. cbn [obind].
    rewrite uadd_eq by lia. cbn [obind]. rewrite read_field_eq by lia. cbn [obind].
    rewrite split_trunc_eq by exact OFF. now rewrite GET.
  - intros i Hi IH. replace (N.to_nat (n + 1 - i)) with (S (N.to_nat (n + 1 - (i + 1)))) by lia.
    cbn [extract_elf_loop]. pose proof (row_le i n se Hi).
    destruct (OLD i Hi) as (s & Hs & Hne). pose proof (read_string_lt _ _ _ _ Hs).
    rewrite uadd_eq by lia. cbn [obind]. rewrite read_field_eq by lia. cbn [obind].
    rewrite uadd_eq by lia. cbn [obind]. rewrite Hs. cbn [obind].
    rewrite (proj2 (str_eqb_neq s name) Hne). exact IH.
Qed.

Variable sx : N.
Hypothesis VAL : validate_elf true m f = Ok tt.
Hypothesis L64 : 64 <= lenN f.
Hypothesis H40 : fieldN f 40 8 = tab.
Hypothesis H58 : fieldN f 58 2 = se.
Hypothesis H60 : fieldN f 60 2 = n + 1.
Hypothesis H62 : fieldN f 62 2 = sx.
Hypothesis SXN : sx <= n.
Hypothesis NOFF : fieldN f (tab + sx * se + 24) 8 = noff.

Lemma extract_elf_last : extract_elf m f name = Ok p.
Proof.
  unfold extract_elf, extract_elf_gen. pose proof (N.mul_le_mono_r sx n se SXN).
  rewrite VAL. cbn [obind]. rewrite read_field_eq, H40 by lia. cbn [obind].
  rewrite read_field_eq, H58 by lia. cbn [obind]. rewrite read_field_eq, H60 by lia. cbn [obind].
  rewrite read_field_eq, H62 by lia. cbn [obind].
  rewrite uadd_eq by lia. cbn [obind]. rewrite uadd_eq by lia. cbn [obind].
  rewrite read_field_eq, NOFF by lia. cbn [obind].
  replace (N.to_nat (n + 1)) with (N.to_nat (n + 1 - 0)) by (f_equal; lia).
  apply elf_loop_last. lia.
Qed.
End ElfRun.

(* What add_section_to_elf preserves, over the header fields [shoff se shnum sx noff nsz] of e. *)
Definition elf_preserved (e name p e' : list byte) (shoff se shnum sx noff nsz : N) : Prop :=
  let pos := noff + nsz in let k := lenN name + 1 in
  lenN e = shoff + shnum * se /\ pos <= shoff /\ sx < shnum /\ 40 <= se /\
  (* below the insertion point only e_shoff and e_shnum change *)
  (forall o n, o + n <= pos -> (o + n <= 40 \/ 48 <= o) -> (o + n <= 60 \/ 62 <= o) -> subN e' o n = subN e o n) /\
  fieldN e' 40 8 = shoff + k + lenN p /\ fieldN e' 60 2 = shnum + 1 /\
  (* the name and its terminator are inserted at the end of the name table *)
  subN e' pos k = name ++ [zero] /\
  (* everything between the name table and the old section header table moves up by |name|+1 *)
  (forall o n, pos <= o -> o + n <= shoff -> subN e' (o + k) n = subN e o n) /\
  (* the payload follows, then the new section header table *)
  subN e' (shoff + k) (lenN p) = p /\
  lenN e' = shoff + k + lenN p + (shnum + 1) * se /\
  (* old section headers: every byte outside sh_offset of later sections and sh_size of the names section *)
  (forall o n, off_cols se sx shnum o n -> (o + n <= sx * se + 32 \/ sx * se + 40 <= o) -> o + n <= shnum * se ->
               subN e' (shoff + k + lenN p + o) n = subN e (shoff + o) n) /\
  (* ... and those two kinds of fields grow by |name|+1 *)
  (forall j, sx < j < shnum -> fieldN e' (shoff + k + lenN p + (j * se + 24)) 8 = fieldN e (shoff + j * se + 24) 8 + k) /\
  fieldN e' (shoff + k + lenN p + (sx * se + 32)) 8 = nsz + k.

(* The file of elf_file over numbers that are variables: [shoff se shnum sx noff nsz] stand for the
   header fields of [e].  The hypotheses come in the order in which the lemmas need them. *)
Section ElfOut.
Variables (e name p sht2 hdr4 : list byte) (shoff se shnum sx noff nsz : N).
Let k := lenN name + 1.
Let pos := noff + nsz.
Let ins := name ++ [zero].
Let A := encode_le 8 (shoff + k + lenN p).
Let B := encode_le 2 (shnum + 1).
Let X := takeN shoff e.
Let e' := updN (updN (insN X pos ins ++ p ++ sht2 ++ hdr4) 40 A) 60 B.
Let nshoff := shoff + k + lenN p.
Let R := dropN pos X.

Hypothesis LE : lenN e = shoff + shnum * se.
Hypothesis PS : pos <= shoff.
Hypothesis W1 : 64 <= noff.
Hypothesis LS : lenN sht2 = shnum * se.
Hypothesis LH : lenN hdr4 = se.

(* e' is an instance of Section Inserted *)
Local Lemma PX : pos <= lenN X. Proof. unfold X. len. Qed.
Local Lemma AB : 40 + lenN A <= 60. Proof. unfold A. len. Qed.
Local Lemma BP : 60 + lenN B <= pos. Proof. unfold B. len. Qed.

Local Lemma Le' : lenN e' = nshoff + shnum * se + se.
Proof. unfold e'. rewrite (ins_len _ _ _ _ _ _ _ _ PX AB BP). unfold X, ins. len. Qed.

Local Lemma hd_sub o n : o + n <= pos -> (o + n <= 40 \/ 48 <= o) -> (o + n <= 60 \/ 62 <= o) ->
  subN e' o n = subN e o n.
Proof.
  intros H1 H2 H3. unfold e'. rewrite (ins_low _ _ _ _ _ _ _ _ PX AB BP) by (unfold A, B; len).
  apply subN_takeN. lia.
Qed.

Local Lemma f_low o sz : o + N.of_nat sz <= 40 \/ 48 <= o /\ o + N.of_nat sz <= 60 \/ 62 <= o /\ o + N.of_nat sz <= 64 ->
  fieldN e' o sz = fieldN e o sz.
Proof. intros H. unfold fieldN. f_equal. apply hd_sub; lia. Qed.

Local Lemma valid_same m m' : validate_elf true m' e' = validate_elf true m e.
Proof. pose proof Le'. apply validate_elf_prefix; [apply hd_sub; lia | lia | lia]. Qed.

Local Lemma f_shoff : nshoff < 18446744073709551616 -> fieldN e' 40 8 = nshoff.
Proof. intros H. apply (ins_A _ _ _ _ _ _ _ _ PX AB BP); [reflexivity | lia]. Qed.
Local Lemma f_shnum : shnum + 1 < 65536 -> fieldN e' 60 2 = shnum + 1.
Proof. intros H. apply (ins_B _ _ _ _ _ _ _ _ PX AB BP); [reflexivity | lia]. Qed.

(* e' from the insertion point on, segment by segment *)
Local Lemma D1 : dropN pos e' = ins ++ R ++ p ++ sht2 ++ hdr4.
Proof. apply (ins_at _ _ _ _ _ _ _ _ PX AB BP). Qed.
Local Lemma D2 : dropN (pos + k) e' = R ++ p ++ sht2 ++ hdr4.
Proof. apply (dropN_step _ _ _ _ _ D1). unfold ins. len. Qed.
Local Lemma D3 : dropN (shoff + k) e' = p ++ sht2 ++ hdr4.
Proof. apply (dropN_step _ _ _ _ _ D2). unfold R, X. len. Qed.
Local Lemma D4 : dropN nshoff e' = sht2 ++ hdr4.
Proof. apply (dropN_step _ _ _ _ _ D3). reflexivity. Qed.
Local Lemma D5 : dropN (nshoff + shnum * se) e' = hdr4.
Proof. apply (dropN_step _ _ _ _ _ D4). now rewrite LS. Qed.

Local Lemma payload : subN e' (shoff + k) (lenN p) = p.
Proof. unfold subN. rewrite D3. apply takeN_app_exact. Qed.

Local Lemma tab_sub o n : o + n <= shnum * se -> subN e' (nshoff + o) n = subN sht2 o n.
Proof. intros H. apply (subN_at _ _ _ _ _ _ D4). now rewrite LS. Qed.

Local Lemma f_new off o sz : off = nshoff + shnum * se + o -> fieldN e' off sz = fieldN hdr4 o sz.
Proof. intros ->. unfold fieldN. now rewrite <- subN_dropN, D5. Qed.

Local Lemma moved o n : pos <= o -> o + n <= shoff -> subN e' (o + k) n = subN e o n.
Proof.
  intros G1 G2. replace (o + k) with (pos + k + (o - pos)) by lia.
  rewrite (subN_at _ _ _ _ _ _ D2) by (unfold R, X; len). unfold R, X.
  rewrite subN_dropN, subN_takeN by lia. f_equal. lia.
Qed.

(* old section header bytes, away from the rewritten fields, are found in the new table *)
Hypothesis FR : forall o n, off_cols se sx shnum o n -> (o + n <= sx * se + 32 \/ sx * se + 40 <= o) ->
                 subN sht2 o n = subN e (shoff + o) n.

Local Lemma tab_frame o n : off_cols se sx shnum o n ->
  (o + n <= sx * se + 32 \/ sx * se + 40 <= o) -> o + n <= shnum * se ->
  subN e' (nshoff + o) n = subN e (shoff + o) n.
Proof. intros C1 C2 L. rewrite tab_sub by exact L. now apply FR. Qed.

Hypothesis SE : 40 <= se.
Hypothesis SX : sx < shnum.

Local Lemma f_name j : j < shnum -> fieldN e' (nshoff + j * se) 4 = fieldN e (shoff + j * se + 0) 4.
Proof.
  intros Hj. pose proof (row_le j shnum se Hj). unfold fieldN. rewrite N.add_0_r. f_equal.
  apply tab_frame; [ | | lia].
  - intros j' _. pose proof (row_off j j' se 0 4 24 32). lia.
  - pose proof (row_off j sx se 0 4 32 40). lia.
Qed.

Local Lemma f_noff : fieldN e' (nshoff + sx * se + 24) 8 = fieldN e (shoff + sx * se + 24) 8.
Proof.
  pose proof (row_le sx shnum se SX). unfold fieldN. rewrite <- !N.add_assoc. f_equal.
  apply tab_frame; [ | lia | lia]. intros j Hj. pose proof (row_le sx j se). lia.
Qed.

Lemma out_preserves : nshoff < 18446744073709551616 -> shnum + 1 < 65536 ->
  fieldN sht2 (sx * se + 32) 8 = nsz + k ->
  (forall j, sx < j < shnum -> fieldN sht2 (j * se + 24) 8 = fieldN e (shoff + j * se + 24) 8 + k) ->
  elf_preserved e name p e' shoff se shnum sx noff nsz.
Proof.
  intros B1 B2 FSZ FV. unfold elf_preserved. cbv zeta. fold k pos.
  split; [exact LE|]. split; [exact PS|]. split; [exact SX|]. split; [exact SE|].
  split; [exact hd_sub|]. split; [exact (f_shoff B1)|]. split; [exact (f_shnum B2)|].
  split; [|split; [exact moved|split; [exact payload|split; [|split; [exact tab_frame|split]]]]].
  - unfold subN. rewrite D1. replace k with (lenN ins) by (unfold ins; len). apply takeN_app_exact.
  - rewrite Le'. lia.
  - intros j Hj. pose proof (row_le j shnum se ltac:(lia)).
    rewrite <- FV by exact Hj. unfold fieldN. f_equal. apply tab_sub. lia.
  - pose proof (row_le sx shnum se SX). rewrite <- FSZ. unfold fieldN. f_equal. apply tab_sub. lia.
Qed.

(* the name table seen from offset d inside it: the same bytes up to its final NUL in e and in e' *)
Hypothesis Z : subN e (pos - 1) 1 = [zero].
Hypothesis W2 : 1 <= nsz.

Local Lemma names_seg d : noff <= d -> d < pos ->
  exists seg, In zero seg /\ dropN d e = seg ++ dropN pos e /\ dropN d e' = seg ++ dropN pos e'.
Proof.
  intros G1 G2. exists (subN e d (pos - d)). split; [|split].
  - replace (pos - d) with ((pos - 1 - d) + 1) by lia. rewrite subN_split.
    apply in_or_app. right. replace (d + (pos - 1 - d)) with (pos - 1) by lia. rewrite Z. now left.
  - apply dropN_split; lia.
  - rewrite <- (hd_sub d (pos - d)) by lia. apply dropN_split. lia.
Qed.

(* an old name, read at sh_name [nm] < nsz, is read the same in e and in e' *)
Local Lemma old_name nm : nm < nsz ->
  exists s, read_string e (noff + nm) 32 = Ok s /\ read_string e' (noff + nm) 32 = Ok s.
Proof.
  intros Hn. destruct (names_seg (noff + nm)) as (seg & Zs & S1 & S2); [lia | lia |].
  destruct (read_string_prefix seg 32 (or_introl Zs)) as [s Hs].
  exists s. split; [exact (Hs _ _ _ S1) | exact (Hs _ _ _ S2)].
Qed.

Local Lemma new_name : ~ In zero name -> lenN name <= 32 -> read_string e' pos 32 = Ok name.
Proof.
  intros NZ Ln. pose proof D1 as D. unfold ins in D. rewrite <- app_assoc in D.
  eapply read_string_name; [ | exact D | exact NZ | unfold lenN in Ln; lia | right; eexists; reflexivity].
  rewrite Le'. lia.
Qed.

Variables (m m' : mode).
Hypothesis NM : forall j, j < shnum -> fieldN e (shoff + j * se + 0) 4 < nsz.
Hypothesis NOSEC : ~ exists j, j < shnum /\ read_string e (noff + fieldN e (shoff + j * se + 0) 4) 32 = Ok name.
Hypothesis NOK : name_ok name.
Hypothesis FIT : lenN e + lenN name + lenN p + 65537 < 18446744073709551616.
Hypothesis Hv : validate_elf true m e = Ok tt.
Hypothesis L64 : 64 <= lenN e.
Hypothesis H58 : fieldN e 58 2 = se.
Hypothesis H62 : fieldN e 62 2 = sx.
Hypothesis SN : shnum + 1 < 65536.
Hypothesis NOFF : fieldN e (shoff + sx * se + 24) 8 = noff.
Hypothesis F0 : fieldN hdr4 0 4 = nsz.
Hypothesis F24 : fieldN hdr4 24 8 = shoff + k.
Hypothesis F32 : fieldN hdr4 32 8 = lenN p.

Lemma out_roundtrip : extract_elf m' e' name = Ok p.
Proof.
  pose proof Le' as Le. pose proof (row_le sx shnum se SX).
  assert (SE16 : se < 65536) by (rewrite <- H58; apply (fieldN_lt e 58 2); lia).
  assert (B64 : lenN e' < 18446744073709551616) by lia.
  assert (LF : nshoff + shnum * se + se <= lenN e') by lia.
  apply (extract_elf_last m' e' name p nshoff se shnum noff LF B64 SE) with (sx := sx).
  - intros j Hj. rewrite f_name by exact Hj. destruct (old_name _ (NM j Hj)) as (s & S1 & S2).
    exists s. split; [exact S2|]. intros ->. apply NOSEC. exists j. now split.
  - rewrite (f_new _ 0 4 (eq_sym (N.add_0_r _))), F0. apply new_name; apply NOK.
  - rewrite (f_new _ 24 8 eq_refl), F24. lia.
  - rewrite (f_new _ 24 8 eq_refl), (f_new _ 32 8 eq_refl), F24, F32. exact payload.
  - rewrite (valid_same m m'). exact Hv.
  - lia.
  - apply f_shoff. lia.
  - rewrite f_low by lia. exact H58.
  - exact (f_shnum SN).
  - rewrite f_low by lia. exact H62.
  - lia.
  - rewrite f_noff. exact NOFF.
Qed.
End ElfOut.

Section Roundtrip.
Variables (e name p sht2 hdr4 : list byte).
Let shoff := e_shoff e.
Let se := e_shentsize e.
Let shnum := e_shnum e.
Let sx := e_shstrndx e.
Let noff := names_off e.
Let nsz := names_size e.
Let k := lenN name + 1.
Let pos := noff + nsz.
Let X := takeN shoff e.

Hypothesis W : wf_elf e.
Hypothesis FIT : lenN e + lenN name + lenN p + 65537 < 18446744073709551616.
Hypothesis L64 : 64 <= lenN e.
Hypothesis LE : lenN e = shoff + shnum * se.
Hypothesis PS : pos <= shoff.
Hypothesis SE : 40 <= se.
Hypothesis SX : sx < shnum.
Hypothesis NS : nsz < 4294967296.
Hypothesis SN : shnum + 1 < 65536.
Hypothesis LS : lenN sht2 = shnum * se.
Hypothesis LH : lenN hdr4 = se.
Hypothesis FR : forall o n, (forall j, sx < j < shnum -> o + n <= j * se + 24 \/ j * se + 32 <= o) ->
                 (o + n <= sx * se + 32 \/ sx * se + 40 <= o) ->
                 subN sht2 o n = subN e (shoff + o) n.
Hypothesis FSZ : fieldN sht2 (sx * se + 32) 8 = nsz + k.
Hypothesis FV : forall j, sx < j < shnum -> fieldN sht2 (j * se + 24) 8 = sh_field e j 24 8 + k.
Hypothesis F0 : fieldN hdr4 0 4 = nsz.
Hypothesis F24 : fieldN hdr4 24 8 = shoff + k.
Hypothesis F32 : fieldN hdr4 32 8 = lenN p.

Let R := dropN pos X.

Local Lemma W2 : 1 <= nsz. Proof. apply W. Qed.
Local Lemma LX : lenN X = shoff. Proof. unfold X. len. Qed.
Local Lemma LR : lenN R = shoff - pos. Proof. unfold R. rewrite lenN_dropN, LX. reflexivity. Qed.
End Roundtrip.

Lemma elf_roundtrip m m' e name p e' :
  wf_elf e -> ~ has_section e name -> name_ok name ->
  lenN e + lenN name + lenN p + 65537 < 18446744073709551616 ->
  add_elf m e name p = Ok e' -> extract_elf m' e' name = Ok p.
Proof.
  intros W NS NK FIT H.
  destruct (add_elf_shape m e name p e' H) as (sht2 & hdr4 & [] & ->); [lia|].
  destruct W as (W1 & W2 & Z & W4).
  apply (out_roundtrip e name p sht2 hdr4 (e_shoff e) (e_shentsize e) (e_shnum e) (e_shstrndx e)
           (names_off e) (names_size e)) with (m := m); trivial.
Qed.

Lemma elf_preserves m e name p e' :
  wf_elf e ->
  lenN e + lenN name + lenN p + 65537 < 18446744073709551616 ->
  add_elf m e name p = Ok e' ->
  elf_preserved e name p e' (e_shoff e) (e_shentsize e) (e_shnum e) (e_shstrndx e) (names_off e) (names_size e).
Proof.
  intros W FIT H.
  destruct (add_elf_shape m e name p e' H) as (sht2 & hdr4 & [] & ->); [lia|].
  apply (out_preserves e name p sht2 hdr4); trivial; [apply W | lia].
Qed.
