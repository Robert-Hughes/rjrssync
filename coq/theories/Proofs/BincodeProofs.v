(* Round trip and size lemmas of the message codec (Model/Bincode.v). *)
From RJ Require Import Base.Prelude Model.LEInt Model.Bincode Proofs.LEIntProofs.
Local Open Scope N_scope.

Ltac bsplit := repeat match goal with
  | H : andb _ _ = true |- _ => apply andb_true_iff in H; destruct H
  end.

Lemma get_u32_enc v r : u32_ok v = true -> get_u32 (enc_u32 v ++ r) = Some (v, r).
Proof.
  intros H. unfold get_u32, enc_u32. rewrite take_nat_app by apply le_bytes_length.
  rewrite of_le_bytes_le_bytes; [reflexivity|]. unfold u32_ok in H. cbn [pow256]. lia.
Qed.

Lemma get_u64_enc v r : u64_ok v = true -> get_u64 (enc_u64 v ++ r) = Some (v, r).
Proof.
  intros H. unfold get_u64, enc_u64. rewrite take_nat_app by apply le_bytes_length.
  rewrite of_le_bytes_le_bytes; [reflexivity|]. unfold u64_ok in H. cbn [pow256]. lia.
Qed.

Lemma dec_bool_enc b r : dec_bool (enc_bool b ++ r) = Some (b, r).
Proof. destruct b; reflexivity. Qed.

Lemma dec_buf_enc s r : buf_ok s = true -> dec_buf (enc_buf s ++ r) = Some (s, r).
Proof.
  intros H. unfold dec_buf, enc_buf. rewrite <- app_assoc, get_u64_enc by exact H. apply take_N_app.
Qed.

Lemma dec_str_enc s r : str_ok s = true -> dec_str (enc_buf s ++ r) = Some (s, r).
Proof.
  unfold str_ok. intros H. bsplit. unfold dec_str. rewrite dec_buf_enc by assumption.
  rewrite H0. reflexivity.
Qed.

Lemma dec_option_enc {A} (e : A -> bytes) d (ok : A -> bool) :
  (forall a r, ok a = true -> d (e a ++ r) = Some (a, r)) ->
  forall o r, opt_ok ok o = true -> dec_option d (enc_option e o ++ r) = Some (o, r).
Proof.
  intros Hd [a|] r H; cbn [enc_option app dec_option opt_ok] in *; cbv zeta.
  - change (N_of_ascii (ascii_of_N 1)) with 1.
    change (1 =? 0) with false. change (1 =? 1) with true. cbv beta iota.
    rewrite Hd by exact H. reflexivity.
  - reflexivity.
Qed.

Lemma enc_seq_length {A} (e : A -> bytes) (ok : A -> bool) :
  (forall a, ok a = true -> e a <> []) ->
  forall xs, forallb ok xs = true -> (List.length xs <= List.length (enc_seq e xs))%nat.
Proof.
  intros Hne xs; induction xs as [|a xs IH]; intros H; cbn [enc_seq List.length forallb] in *; [lia|].
  bsplit. rewrite app_length. specialize (IH H0). pose proof (Hne a H) as Ha.
  destruct (e a); [congruence|]. cbn [List.length]. lia.
Qed.

Lemma dec_seq_enc {A} (e : A -> bytes) d (ok : A -> bool) :
  (forall a r, ok a = true -> d (e a ++ r) = Some (a, r)) ->
  forall xs fuel r, forallb ok xs = true -> (List.length xs <= fuel)%nat ->
  dec_seq d fuel (lenN xs) (enc_seq e xs ++ r) = Some (xs, r).
Proof.
  intros Hd xs; induction xs as [|a xs IH]; intros fuel r H Hf; cbn [enc_seq lenN forallb List.length app] in *.
  - destruct fuel; cbn [dec_seq]; rewrite N.eqb_refl; reflexivity.
  - bsplit. destruct fuel as [|f]; [lia|]. cbn [dec_seq].
    destruct (N.eqb_spec (N.succ (lenN xs)) 0) as [E|_]; [lia|].
    rewrite <- app_assoc, Hd by assumption. rewrite N.pred_succ, IH by (assumption || lia). reflexivity.
Qed.

Lemma dec_vec_enc {A} (e : A -> bytes) d (ok : A -> bool) :
  (forall a r, ok a = true -> d (e a ++ r) = Some (a, r)) ->
  (forall a, ok a = true -> e a <> []) ->
  forall xs r, u64_ok (lenN xs) = true -> forallb ok xs = true ->
  dec_vec d (enc_vec e xs ++ r) = Some (xs, r).
Proof.
  intros Hd Hne xs r Hl H. unfold dec_vec, enc_vec. rewrite <- app_assoc, get_u64_enc by exact Hl.
  apply (dec_seq_enc e d ok Hd); [exact H|]. rewrite app_length.
  pose proof (enc_seq_length e ok Hne xs H). lia.
Qed.

Lemma utf8_width_1 n0 : (n0 <? 128) = true -> utf8_width n0 = 1.
Proof. unfold utf8_width. intros ->. reflexivity. Qed.
Lemma utf8_width_2 n0 : in_rng 194 223 n0 = true -> utf8_width n0 = 2.
Proof. unfold utf8_width, in_rng. intros H. destruct (n0 <? 128) eqn:E; [lia|]. rewrite H. reflexivity. Qed.
Lemma utf8_width_3 n0 : in_rng 224 239 n0 = true -> utf8_width n0 = 3.
Proof.
  unfold utf8_width, in_rng. intros H. destruct (n0 <? 128) eqn:E; [lia|].
  destruct ((194 <=? n0) && (n0 <=? 223)) eqn:E2; [lia|]. rewrite H. reflexivity.
Qed.
Lemma utf8_width_4 n0 : in_rng 240 244 n0 = true -> utf8_width n0 = 4.
Proof.
  unfold utf8_width, in_rng. intros H. destruct (n0 <? 128) eqn:E; [lia|].
  destruct ((194 <=? n0) && (n0 <=? 223)) eqn:E2; [lia|].
  destruct ((224 <=? n0) && (n0 <=? 239)) eqn:E3; [lia|]. rewrite H. reflexivity.
Qed.
Lemma utf8_ok4_lead n0 n1 n2 n3 : utf8_ok4 n0 n1 n2 n3 = true -> in_rng 240 244 n0 = true.
Proof. unfold utf8_ok4, in_rng, cont, in_rng. lia. Qed.
Lemma utf8_ok2_lead n0 n1 : utf8_ok2 n0 n1 = true -> in_rng 194 223 n0 = true.
Proof. unfold utf8_ok2. intros H. bsplit. assumption. Qed.

(* the lead byte of a well-formed char announces the number of bytes that follow it *)
Lemma char_width b0 tl : char_ok (b0 :: tl) = true -> utf8_width (N_of_ascii b0) = N.succ (lenN tl).
Proof.
  destruct tl as [|b1 [|b2 [|b3 [|b4 t]]]]; cbn [char_ok]; try discriminate; intros H.
  - apply utf8_width_1, H.
  - apply utf8_width_2, (utf8_ok2_lead _ _ H).
  - bsplit. apply utf8_width_3. assumption.
  - apply utf8_width_4, (utf8_ok4_lead _ _ _ _ H).
Qed.

Lemma dec_char_enc c r : char_ok c = true -> dec_char (c ++ r) = Some (c, r).
Proof.
  destruct c as [|b0 tl]; [discriminate|]. intros H. cbn [app dec_char]; cbv zeta.
  rewrite (char_width b0 tl H). destruct (N.eqb_spec (N.succ (lenN tl)) 0) as [E|_]; [lia|].
  rewrite N.pred_succ, take_N_app. cbv beta iota. rewrite H. reflexivity.
Qed.

Lemma dec_dur_enc d r : dur_ok d = true -> dec_dur (enc_dur d ++ r) = Some (d, r).
Proof.
  unfold dur_ok, nanos_ok. intros H. bsplit. unfold dec_dur, enc_dur.
  rewrite <- app_assoc, get_u64_enc by assumption.
  rewrite get_u32_enc by (unfold u32_ok; lia).
  rewrite N.div_small, N.mod_small by lia. rewrite N.add_0_r, H. destruct d; reflexivity.
Qed.

Lemma dec_time_enc t r : time_ok t = true -> dec_time (enc_time t ++ r) = Some (t, r).
Proof.
  unfold time_ok, time_encodable. intros H. bsplit.
  change (enc_time t) with (enc_dur (mkDur (Z.to_N (t_sec t)) (t_nsec t))).
  unfold dec_time. rewrite dec_dur_enc.
  - cbn [d_sec d_nsec]. destruct (N.ltb_spec (Z.to_N (t_sec t)) 9223372036854775808) as [_|E]; [|lia].
    rewrite Z2N.id by lia. destruct t; reflexivity.
  - unfold dur_ok, u64_ok. cbn [d_sec d_nsec]. apply andb_true_iff; split; [lia|assumption].
Qed.

Ltac rt_side := first [ reflexivity | assumption ].
Ltac rt_step :=
  rewrite <- ?app_assoc;
  first
  [ rewrite get_u32_enc by rt_side
  | rewrite get_u64_enc by rt_side
  | rewrite dec_bool_enc
  | rewrite dec_str_enc by rt_side
  | rewrite dec_buf_enc by rt_side
  | rewrite dec_time_enc by rt_side
  | rewrite dec_dur_enc by rt_side ];
  cbv beta iota.

Lemma dec_filter_kind_enc k r : dec_filter_kind (enc_filter_kind k ++ r) = Some (k, r).
Proof. destruct k; unfold dec_filter_kind, enc_filter_kind; rt_step; reflexivity. Qed.

Lemma enc_u32_ne v : enc_u32 v <> [].
Proof. unfold enc_u32. cbn [le_bytes]. discriminate. Qed.
Lemma enc_u64_ne v : enc_u64 v <> [].
Proof. unfold enc_u64. cbn [le_bytes]. discriminate. Qed.
Lemma enc_buf_ne s : enc_buf s <> [].
Proof. unfold enc_buf, enc_u64. cbn [le_bytes app]. discriminate. Qed.

Lemma dec_filters_enc f r : filters_ok f = true -> dec_filters (enc_filters f ++ r) = Some (f, r).
Proof.
  unfold filters_ok. intros H. bsplit. unfold dec_filters, enc_filters. rewrite <- app_assoc.
  rewrite (dec_vec_enc enc_buf dec_str str_ok) by (assumption || (intros; apply dec_str_enc; assumption) || (intros; apply enc_buf_ne)).
  rewrite (dec_vec_enc enc_filter_kind dec_filter_kind (fun _ => true)).
  - destruct f; reflexivity.
  - intros; apply dec_filter_kind_enc.
  - intros a _. destruct a; apply enc_u32_ne.
  - assumption.
  - apply forallb_forall. reflexivity.
Qed.

Lemma dec_phase_enc p r : phase_ok p = true -> dec_phase (enc_phase p ++ r) = Some (p, r).
Proof.
  destruct p; cbn [phase_ok enc_phase]; intros H; bsplit; unfold dec_phase; repeat rt_step; reflexivity.
Qed.

Lemma dec_marker_enc m r : marker_ok m = true -> dec_marker (enc_marker m ++ r) = Some (m, r).
Proof.
  unfold marker_ok. intros H. bsplit. unfold dec_marker, enc_marker. rt_step.
  rewrite dec_phase_enc by assumption. destruct m; reflexivity.
Qed.

Lemma dec_kind_enc k r : dec_kind (enc_kind k ++ r) = Some (k, r).
Proof. destruct k; unfold dec_kind, enc_kind; rt_step; reflexivity. Qed.

Lemma dec_target_enc t r : target_ok t = true -> dec_target (enc_target t ++ r) = Some (t, r).
Proof. destruct t; cbn [target_ok enc_target]; intros H; unfold dec_target; repeat rt_step; reflexivity. Qed.

Lemma dec_details_enc d r : details_ok d = true -> dec_details (enc_details d ++ r) = Some (d, r).
Proof.
  destruct d; cbn [details_ok enc_details]; intros H; bsplit; unfold dec_details; repeat rt_step; try reflexivity.
  rewrite <- ?app_assoc, dec_kind_enc. cbv beta iota. rewrite dec_target_enc by assumption. reflexivity.
Qed.

Theorem decode_encode_command c rest :
  wf_command c = true -> decode_command (enc_command c ++ rest) = Some (c, rest).
Proof.
  destruct c; cbn [wf_command enc_command]; intros H; bsplit; unfold decode_command; repeat rt_step; try reflexivity.
  - (* GetEntries *) rewrite dec_filters_enc by assumption. reflexivity.
  - (* CreateOrUpdateFile *)
    rewrite <- ?app_assoc. rewrite (dec_option_enc enc_time dec_time time_ok) by (assumption || (intros; apply dec_time_enc; assumption)).
    rt_step. reflexivity.
  - (* CreateSymlink *) rewrite <- ?app_assoc, dec_kind_enc. cbv beta iota. rewrite dec_target_enc by assumption. reflexivity.
  - (* DeleteSymlink *) rewrite <- (app_nil_r (enc_kind kind)) at 1. rewrite <- ?app_assoc. rewrite dec_kind_enc. reflexivity.
  - (* Marker *) rewrite dec_marker_enc by assumption. reflexivity.
Qed.

Lemma dec_prof_entry_enc e r : prof_entry_ok e = true -> dec_prof_entry (enc_prof_entry e ++ r) = Some (e, r).
Proof.
  unfold prof_entry_ok. intros H. bsplit. unfold dec_prof_entry, enc_prof_entry. repeat rt_step. destruct e; reflexivity.
Qed.

Lemma dec_prof_thread_enc t r : prof_thread_ok t = true -> dec_prof_thread (enc_prof_thread t ++ r) = Some (t, r).
Proof.
  unfold prof_thread_ok. intros H. bsplit. unfold dec_prof_thread, enc_prof_thread. rt_step.
  rewrite (dec_vec_enc enc_prof_entry dec_prof_entry prof_entry_ok); try assumption.
  - destruct t; reflexivity.
  - intros; apply dec_prof_entry_enc; assumption.
  - intros a _. unfold enc_prof_entry. intros E. apply app_eq_nil in E as [E _]. exact (enc_buf_ne _ E).
Qed.

Lemma dec_prof_enc p r : prof_ok p = true -> dec_prof (enc_prof p ++ r) = Some (p, r).
Proof.
  unfold prof_ok. intros H. bsplit. unfold dec_prof, enc_prof. rt_step.
  rewrite (dec_vec_enc enc_prof_thread dec_prof_thread prof_thread_ok); try assumption.
  - destruct p; reflexivity.
  - intros; apply dec_prof_thread_enc; assumption.
  - intros a _. unfold enc_prof_thread. intros E. apply app_eq_nil in E as [E _]. exact (enc_buf_ne _ E).
Qed.

Theorem decode_encode_response x rest :
  wf_response x = true -> decode_response (enc_response x ++ rest) = Some (x, rest).
Proof.
  destruct x; cbn [wf_response enc_response]; intros H; bsplit; unfold decode_response; repeat rt_step; try reflexivity.
  - (* RootDetails *)
    rewrite <- ?app_assoc. rewrite (dec_option_enc enc_details dec_details details_ok) by (assumption || (intros; apply dec_details_enc; assumption)).
    rt_step. rewrite dec_char_enc by assumption. reflexivity.
  - (* Entry *) rewrite dec_details_enc by assumption. reflexivity.
  - (* ProfilingData *) rewrite dec_prof_enc by assumption. reflexivity.
  - (* Marker *) rewrite dec_marker_enc by assumption. reflexivity.
Qed.

Lemma len_u32 v : lenN (enc_u32 v) = 4.
Proof. unfold enc_u32. rewrite lenN_le_bytes. reflexivity. Qed.
Lemma len_u64 v : lenN (enc_u64 v) = 8.
Proof. unfold enc_u64. rewrite lenN_le_bytes. reflexivity. Qed.
Lemma len_bool b : lenN (enc_bool b) = 1.
Proof. reflexivity. Qed.
Lemma len_buf s : lenN (enc_buf s) = size_buf s.
Proof. unfold enc_buf, size_buf. rewrite lenN_app, len_u64. reflexivity. Qed.
Lemma len_time t : lenN (enc_time t) = 12.
Proof. unfold enc_time. rewrite lenN_app, len_u64, len_u32. reflexivity. Qed.
Lemma len_dur d : lenN (enc_dur d) = 12.
Proof. unfold enc_dur. rewrite lenN_app, len_u64, len_u32. reflexivity. Qed.
Lemma len_option {A} (e : A -> bytes) sz o : (forall a, lenN (e a) = sz a) -> lenN (enc_option e o) = size_option sz o.
Proof. intros H. destruct o; cbn [enc_option size_option lenN]; [rewrite H; lia | reflexivity]. Qed.
Lemma len_seq {A} (e : A -> bytes) sz l : (forall a, lenN (e a) = sz a) -> lenN (enc_seq e l) = sumN (map sz l).
Proof. intros H. induction l as [|a l IH]; cbn [enc_seq map sumN]; [reflexivity|]. rewrite lenN_app, H, IH. reflexivity. Qed.
Lemma len_vec {A} (e : A -> bytes) sz l : (forall a, lenN (e a) = sz a) -> lenN (enc_vec e l) = size_vec sz l.
Proof. intros H. unfold enc_vec, size_vec. rewrite lenN_app, len_u64, (len_seq e sz l H). reflexivity. Qed.
Lemma len_kind k : lenN (enc_kind k) = 4.
Proof. apply len_u32. Qed.
Lemma len_filter_kind k : lenN (enc_filter_kind k) = 4.
Proof. apply len_u32. Qed.

Ltac len_simpl := rewrite ?lenN_app, ?len_u32, ?len_u64, ?len_bool, ?len_buf, ?len_time, ?len_dur, ?len_kind.

Lemma len_filters f : lenN (enc_filters f) = size_filters f.
Proof.
  unfold enc_filters, size_filters. rewrite lenN_app.
  rewrite (len_vec enc_buf size_buf) by apply len_buf.
  rewrite (len_vec enc_filter_kind (fun _ => 4)) by apply len_filter_kind. reflexivity.
Qed.
Lemma len_phase p : lenN (enc_phase p) = size_phase p.
Proof. destruct p; cbn [enc_phase size_phase]; len_simpl; lia. Qed.
Lemma len_marker m : lenN (enc_marker m) = size_marker m.
Proof. unfold enc_marker, size_marker. len_simpl. rewrite len_phase. reflexivity. Qed.
Lemma len_target t : lenN (enc_target t) = size_target t.
Proof. destruct t; cbn [enc_target size_target]; len_simpl; lia. Qed.
Lemma len_details d : lenN (enc_details d) = size_details d.
Proof. destruct d; cbn [enc_details size_details]; len_simpl; rewrite ?len_target; lia. Qed.

Theorem len_enc_command c : lenN (enc_command c) = size_command c.
Proof.
  destruct c; cbn [enc_command size_command]; len_simpl; rewrite ?len_target, ?len_marker, ?len_filters; try lia.
  rewrite (len_option enc_time (fun _ => 12)) by apply len_time. lia.
Qed.

Lemma len_prof_entry e : lenN (enc_prof_entry e) = size_prof_entry e.
Proof. unfold enc_prof_entry, size_prof_entry. len_simpl. lia. Qed.
Lemma len_prof_thread t : lenN (enc_prof_thread t) = size_prof_thread t.
Proof.
  unfold enc_prof_thread, size_prof_thread. len_simpl.
  rewrite (len_vec enc_prof_entry size_prof_entry) by apply len_prof_entry. reflexivity.
Qed.
Lemma len_prof p : lenN (enc_prof p) = size_prof p.
Proof.
  unfold enc_prof, size_prof. len_simpl.
  rewrite (len_vec enc_prof_thread size_prof_thread) by apply len_prof_thread. reflexivity.
Qed.

Theorem len_enc_response x : lenN (enc_response x) = size_response x.
Proof.
  destruct x; cbn [enc_response size_response]; len_simpl; rewrite ?len_details, ?len_marker, ?len_prof; try lia.
  rewrite (len_option enc_details size_details) by apply len_details. lia.
Qed.

Lemma wf_command_encodable c : wf_command c = true -> command_encodable c = true.
Proof.
  destruct c; cbn [wf_command command_encodable]; try reflexivity. intros H. bsplit.
  destruct set_modified_time as [t|]; cbn [opt_ok] in *; [|reflexivity]. unfold time_ok in *. bsplit. assumption.
Qed.

Lemma details_ok_encodable d : details_ok d = true -> details_encodable d = true.
Proof. destruct d; cbn [details_ok details_encodable]; try reflexivity. intros H. unfold time_ok in H. bsplit. assumption. Qed.

Lemma wf_response_encodable x : wf_response x = true -> response_encodable x = true.
Proof.
  destruct x; cbn [wf_response response_encodable]; try reflexivity; intros H; bsplit.
  - destruct root_details; cbn [opt_ok] in *; [apply details_ok_encodable; assumption | reflexivity].
  - apply details_ok_encodable; assumption.
Qed.

(* What the entry points do, for either message type: [if encodable x then Ok (enc x) else Err epoch_error] is
   encode_command / encode_response, the same with [size] serialized_size_*, and [expect_size] of that send_size_*.
   The instances below are the statements of Props/C14.v. *)
Section Entry.
  Variable T : Type.
  Variables (enc : T -> bytes) (dec : bytes -> option (T * bytes)) (wf encodable : T -> bool) (size : T -> N).
  Hypothesis dec_enc : forall x rest, wf x = true -> dec (enc x ++ rest) = Some (x, rest).
  Hypothesis len_enc : forall x, lenN (enc x) = size x.
  Hypothesis wf_encodable : forall x, wf x = true -> encodable x = true.
  Notation encode x := (if encodable x then Ok (enc x) else Err epoch_error).
  Notation ser_size x := (if encodable x then Ok (size x) else Err epoch_error).

  Lemma codec x rest : wf x = true ->
    exists b, encode x = Ok b /\ dec (b ++ rest) = Some (x, rest) /\
              ser_size x = Ok (lenN b) /\ expect_size (ser_size x) = Ok (lenN b).
  Proof.
    intros H. exists (enc x). rewrite (wf_encodable x H), len_enc. repeat split. apply dec_enc, H.
  Qed.

  (* whatever serializes has exactly the announced size (no well-formedness needed) *)
  Lemma size_is_length x b : encode x = Ok b -> ser_size x = Ok (lenN b).
  Proof. destruct (encodable x); [|discriminate]. intros E. inversion E; subst. rewrite len_enc. reflexivity. Qed.

  Lemma encode_injective x1 x2 : wf x1 = true -> wf x2 = true -> enc x1 = enc x2 -> x1 = x2.
  Proof.
    intros H1 H2 E. pose proof (dec_enc x1 [] H1) as D1. rewrite E, (dec_enc x2 [] H2) in D1. congruence.
  Qed.

  (* C18-relevant: the size computation of the channel send never panics on a well-formed message;
     exactly the messages carrying a time before the epoch are affected *)
  Lemma send_size_total x : wf x = true -> is_panic (expect_size (ser_size x)) = false.
  Proof. intros H. rewrite (wf_encodable x H). reflexivity. Qed.

  Lemma send_size_panics_iff x : is_panic (expect_size (ser_size x)) = negb (encodable x).
  Proof. destruct (encodable x); reflexivity. Qed.
End Entry.

Definition codec_command := codec _ _ _ _ _ _ decode_encode_command len_enc_command wf_command_encodable.
Definition codec_response := codec _ _ _ _ _ _ decode_encode_response len_enc_response wf_response_encodable.
Definition size_is_length_command := size_is_length _ _ command_encodable _ len_enc_command.
Definition size_is_length_response := size_is_length _ _ response_encodable _ len_enc_response.
Definition encode_command_injective := encode_injective _ _ _ _ decode_encode_command.
Definition encode_response_injective := encode_injective _ _ _ _ decode_encode_response.
Definition send_size_total_command := send_size_total _ _ _ size_command wf_command_encodable.
Definition send_size_total_response := send_size_total _ _ _ size_response wf_response_encodable.
Definition send_size_panics_iff_command : forall c, is_panic (send_size_command c) = negb (command_encodable c) :=
  send_size_panics_iff _ command_encodable size_command.
Definition send_size_panics_iff_response : forall x, is_panic (send_size_response x) = negb (response_encodable x) :=
  send_size_panics_iff _ response_encodable size_response.

(* the size computation does panic for a file dated before 1970 (defect F8 of property C18): a 1960 mtime *)
Definition t1960 : time := mkTime (-315619200) 0.
Lemma size_panics_before_epoch :
  is_panic (send_size_command (CCreateOrUpdateFile [] [] (Some t1960) false)) = true /\
  is_panic (send_size_response (REntry [] (EDFile t1960 0))) = true /\
  is_panic (send_size_response (RRootDetails (Some (EDFile t1960 0)) false [ascii_of_N 47])) = true.
Proof. vm_compute. repeat split. Qed.
