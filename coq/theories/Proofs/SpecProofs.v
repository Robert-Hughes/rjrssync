(* A spec with several syncs (Model/SpecRun.v): exit status, what ran, what each sync achieved, what is left
   untouched - by composition of the single-sync theorems of the executable instance. *)
From RJ Require Import Base.Prelude Base.OrderedPlan Model.Settings Model.Core Model.Fs Model.Paths Model.Sync Model.SyncTop Model.SpecRun
  Spec.PlanSpec Spec.Mirror Proofs.ExecProofs Proofs.MirrorProofs Proofs.InstanceProofs Proofs.RepairMain Proofs.ConfineAll.

(* each started sync with the store it began with and its result *)
Fixpoint spec_trace (jobs : list job) (st : store) : list (job * store * result) :=
  match jobs with
  | [] => []
  | j :: rest =>
      let r := run_job j st in
      (j, st, r) :: (if r_ok r then spec_trace rest (sset st (j_dst j) (d_fs (r_dest r))) else [])
  end.
Definition t_job (t : job * store * result) : job := fst (fst t).
Definition t_store (t : job * store * result) : store := snd (fst t).
Definition t_res (t : job * store * result) : result := snd t.
Definition apply_t (s : store) (t : job * store * result) : store := sset s (j_dst (t_job t)) (d_fs (r_dest (t_res t))).

Lemma sget_sset_eq st i f : sget (sset st i f) i = f.
Proof.
  induction st as [|[k g] st IH]; cbn [sset sget].
  - rewrite Nat.eqb_refl. reflexivity.
  - destruct (Nat.eqb i k) eqn:E; cbn [sget]; rewrite E; [reflexivity|exact IH].
Qed.
Lemma sget_sset_ne st i k f : i <> k -> sget (sset st k f) i = sget st i.
Proof.
  intros Hne. induction st as [|[k' g] st IH]; cbn [sset sget].
  - destruct (Nat.eqb i k) eqn:E; [apply Nat.eqb_eq in E; contradiction|reflexivity].
  - destruct (Nat.eqb k k') eqn:E; cbn [sget].
    + apply Nat.eqb_eq in E. subst k'. destruct (Nat.eqb i k) eqn:E2; [apply Nat.eqb_eq in E2; contradiction|reflexivity].
    + destruct (Nat.eqb i k'); [reflexivity|exact IH].
Qed.

Lemma runs_of_trace jobs : forall st, sp_runs (run_spec jobs st) = map t_res (spec_trace jobs st).
Proof.
  induction jobs as [|j rest IH]; intros st; cbn [run_spec spec_trace]; [reflexivity|].
  destruct (r_ok (run_job j st)); cbn [sp_runs map t_res snd]; [rewrite IH|]; reflexivity.
Qed.
Lemma store_of_trace jobs : forall st, sp_store (run_spec jobs st) = fold_left apply_t (spec_trace jobs st) st.
Proof.
  induction jobs as [|j rest IH]; intros st; cbn [run_spec spec_trace]; [reflexivity|].
  destruct (r_ok (run_job j st)); cbn [sp_store fold_left]; [rewrite IH|]; reflexivity.
Qed.
Lemma trace_jobs jobs : forall st, map t_job (spec_trace jobs st) = firstn (length (spec_trace jobs st)) jobs.
Proof.
  induction jobs as [|j rest IH]; intros st; cbn [spec_trace]; [reflexivity|].
  cbn [map length firstn t_job fst]. f_equal. destruct (r_ok (run_job j st)); [apply IH|reflexivity].
Qed.
Lemma trace_is_runs jobs : forall st, Forall (fun t => t_res t = run_job (t_job t) (t_store t)) (spec_trace jobs st).
Proof.
  induction jobs as [|j rest IH]; intros st; cbn [spec_trace]; constructor; [reflexivity|].
  destruct (r_ok (run_job j st)); [apply IH|constructor].
Qed.
(* consecutive stores: each sync begins where the one before it ended *)
Lemma trace_chain jobs : forall st pre t1 t2 post, spec_trace jobs st = pre ++ t1 :: t2 :: post ->
  t_store t2 = apply_t (t_store t1) t1 /\ r_ok (t_res t1) = true.
Proof.
  induction jobs as [|j rest IH]; intros st pre t1 t2 post E; cbn [spec_trace] in E; [destruct pre; discriminate|].
  destruct pre as [|t0 pre]; cbn [app] in E; inversion E as [[E1 E2]]; subst.
  - destruct (r_ok (run_job j st)) eqn:Eok; [|discriminate]. split; [|exact Eok].
    destruct rest as [|j2 rest]; cbn [spec_trace] in E2; inversion E2; subst. reflexivity.
  - destruct (r_ok (run_job j st)); [|destruct pre; discriminate]. exact (IH _ _ _ _ _ E2).
Qed.
Lemma trace_first jobs st t post : spec_trace jobs st = t :: post -> t_store t = st.
Proof. destruct jobs; cbn [spec_trace]; intros E; inversion E; reflexivity. Qed.

(* 0 exactly when every sync of the spec was started and returned Ok *)
Theorem spec_ok_iff jobs : forall st,
  sp_ok (run_spec jobs st) = true <->
  length (sp_runs (run_spec jobs st)) = length jobs /\ forallb r_ok (sp_runs (run_spec jobs st)) = true.
Proof.
  induction jobs as [|j rest IH]; intros st; cbn [run_spec]; [cbn; tauto|].
  destruct (r_ok (run_job j st)) eqn:Eok; cbn [sp_ok sp_runs length forallb].
  - rewrite Eok, IH. cbn [andb]. split; intros [H1 H2]; split; auto; lia.
  - rewrite Eok. cbn [andb]. split; [discriminate|intros [_ H]; discriminate].
Qed.
(* the first failing sync is the last one started; 12 exactly when there is one *)
Theorem spec_failure_is_last jobs : forall st,
  forallb r_ok (removelast (sp_runs (run_spec jobs st))) = true /\
  length (sp_runs (run_spec jobs st)) <= length jobs /\
  (sp_ok (run_spec jobs st) = false <-> exists r, last (sp_runs (run_spec jobs st)) r = r /\ r_ok r = false /\ sp_runs (run_spec jobs st) <> []).
Proof.
  induction jobs as [|j rest IH]; intros st; cbn [run_spec].
  - cbn. split; [reflexivity|]. split; [lia|]. split; [discriminate|intros (r & _ & _ & H); congruence].
  - destruct (r_ok (run_job j st)) eqn:Eok; cbn [sp_ok sp_runs].
    + destruct (IH (sset st (j_dst j) (d_fs (r_dest (run_job j st))))) as (I1 & I2 & I3).
      set (sr := run_spec rest _) in *. split; [|split].
      * destruct (sp_runs sr) as [|r0 l] eqn:El; [reflexivity|]. cbn [removelast]. cbn [forallb]. rewrite Eok. exact I1.
      * cbn [length]. lia.
      * rewrite I3. split.
        -- intros (r & Hl & Hr & Hne). exists r. split; [|split; [exact Hr|discriminate]].
           destruct (sp_runs sr) as [|r0 l]; [congruence|]. exact Hl.
        -- intros (r & Hl & Hr & _). destruct (sp_runs sr) as [|r0 l] eqn:El.
           ++ cbn in Hl. subst r. congruence.
           ++ exists r. split; [exact Hl|]. split; [exact Hr|discriminate].
    + split; [reflexivity|]. split; [cbn [length]; lia|]. split; [|reflexivity].
      intros _. exists (run_job j st). split; [reflexivity|]. split; [exact Eok|discriminate].
Qed.

(* roots that are nobody's destination are never changed (C02 for a spec) *)
Theorem spec_untouched jobs i : forall st,
  (forall j, In j jobs -> j_dst j <> i) -> sget (sp_store (run_spec jobs st)) i = sget st i.
Proof.
  induction jobs as [|j rest IH]; intros st H; cbn [run_spec]; [reflexivity|].
  assert (Hj : i <> j_dst j) by (intros E; apply (H j); [left; reflexivity|auto]).
  destruct (r_ok (run_job j st)); cbn [sp_store].
  - rewrite IH; [apply sget_sset_ne; exact Hj|]. intros j' Hj'. apply H. right. exact Hj'.
  - apply sget_sset_ne. exact Hj.
Qed.

Definition store_ok (st : store) : Prop := forall i, wf_fs (sget st i) /\ unique_keys (sget st i).

Lemma run_top_wfu cfg S D a ans bits ex ft : unique_keys D -> wf_fs D ->
  wf_fs (d_fs (r_dest (run_top cfg S D a ans bits ex ft))) /\ unique_keys (d_fs (r_dest (run_top cfg S D a ans bits ex ft))).
Proof.
  intros Hu Hw.
  exact (proj2 (kill_states_well_formed cfg S D a [] ans bits (list_fs now_far (excl_incl ex) normalize_unix S)
                  (list_fs now_far (excl_incl ex) normalize_unix D) ft Hu Hw)).
Qed.

Lemma store_ok_step st j : store_ok st -> store_ok (sset st (j_dst j) (d_fs (r_dest (run_job j st)))).
Proof.
  intros H i. destruct (Nat.eq_dec i (j_dst j)) as [->|Hne].
  - rewrite sget_sset_eq. destruct (H (j_dst j)) as [Hw Hu]. apply run_top_wfu; assumption.
  - rewrite sget_sset_ne by exact Hne. apply H.
Qed.

Theorem spec_stores_ok jobs : forall st, store_ok st ->
  Forall (fun t => store_ok (t_store t)) (spec_trace jobs st) /\ store_ok (sp_store (run_spec jobs st)).
Proof.
  induction jobs as [|j rest IH]; intros st H; cbn [spec_trace run_spec]; [split; [constructor|exact H]|].
  pose proof (store_ok_step st j H) as H'.
  destruct (r_ok (run_job j st)); cbn [sp_store].
  - destruct (IH _ H') as [I1 I2]. split; [constructor; [exact H|exact I1]|exact I2].
  - split; [constructor; [exact H|constructor]|exact H'].
Qed.

(* Every sync that was started: nothing went through a destination link; and if it returned Ok without skips
   (no dry run, Unix destination), its destination tree then mirrored its source tree - as these two trees were
   when it began, i.e. including everything earlier syncs of the spec wrote. *)
Theorem spec_each_sync jobs st : store_ok st ->
  Forall (fun t =>
    let j := t_job t in let S := sget (t_store t) (j_src j) in let D := sget (t_store t) (j_dst j) in
    no_through (d_events (r_dest (t_res t))) /\
    (src_times_set S -> links_utf8 S ->
     r_ok (t_res t) = true -> r_skipped (t_res t) = [] -> r_root_skipped (t_res t) = false ->
     cf_dry (j_cfg j) = false -> cf_fl (j_cfg j) = Unix ->
     mirror now_far (excl_incl (j_ex j)) normalize_unix (cf_diff (j_cfg j)) Unix S D (d_fs (r_dest (t_res t)))))
    (spec_trace jobs st).
Proof.
  intros Hok. destruct (spec_stores_ok jobs st Hok) as [Hst _].
  pose proof (trace_is_runs jobs st) as Hr.
  rewrite Forall_forall in *. intros t Ht. specialize (Hst t Ht). specialize (Hr t Ht). cbv zeta.
  rewrite Hr. unfold run_job.
  destruct (Hst (j_src (t_job t))) as [HwS HuS]. destruct (Hst (j_dst (t_job t))) as [HwD HuD].
  split.
  - apply run_top_never_through; assumption.
  - intros Hts Hlk Hk Hsk Hrs Hdry Hfl. apply run_top_mirror_unconditional; assumption.
Qed.

Lemma fold_untouched (l : list (job * store * result)) i : forall s,
  (forall t, In t l -> j_dst (t_job t) <> i) -> sget (fold_left apply_t l s) i = sget s i.
Proof.
  induction l as [|t l IH]; intros s H; cbn [fold_left]; [reflexivity|].
  rewrite IH; [|intros t' Ht'; apply H; right; exact Ht'].
  unfold apply_t. apply sget_sset_ne. intros E. apply (H t); [left; reflexivity|auto].
Qed.

Lemma fold_app_store jobs : forall st pre t post, spec_trace jobs st = pre ++ t :: post ->
  fold_left apply_t pre st = t_store t.
Proof.
  intros st pre. revert jobs st. induction pre as [|t0 pre IH]; intros jobs st t post E; cbn [fold_left app] in *.
  - symmetry. exact (trace_first jobs st t post E).
  - destruct jobs as [|j rest]; cbn [spec_trace] in E; [discriminate|]. inversion E as [[E1 E2]]. subst t0.
    destruct (r_ok (run_job j st)); [|destruct pre; discriminate].
    unfold apply_t at 2. cbn [t_job t_res fst snd]. exact (IH _ _ _ _ E2).
Qed.

(* If no later sync of the spec writes to the destination or the source of a sync, then at the end of the
   run these two roots hold exactly what that sync left / read. *)
Theorem spec_final_trees jobs st pre t post :
  spec_trace jobs st = pre ++ t :: post ->
  j_src (t_job t) <> j_dst (t_job t) ->
  (forall t', In t' post -> j_dst (t_job t') <> j_dst (t_job t) /\ j_dst (t_job t') <> j_src (t_job t)) ->
  sget (sp_store (run_spec jobs st)) (j_dst (t_job t)) = d_fs (r_dest (t_res t)) /\
  sget (sp_store (run_spec jobs st)) (j_src (t_job t)) = sget (t_store t) (j_src (t_job t)).
Proof.
  intros E Hne Hpost. rewrite store_of_trace, E, fold_left_app. cbn [fold_left].
  rewrite (fold_app_store jobs st pre t post E).
  split.
  - rewrite fold_untouched by (intros t' Ht'; apply (Hpost t' Ht')). unfold apply_t. apply sget_sset_eq.
  - rewrite fold_untouched by (intros t' Ht'; apply (Hpost t' Ht')). unfold apply_t. apply sget_sset_ne. exact Hne.
Qed.

(* chains (A -> B, then B -> C): a mirrored destination is fit to be the next sync's source *)
Lemma mirror_keeps_times_set incl diff S D D' :
  mirror now_far incl normalize_unix diff Unix S D D' -> src_times_set S -> src_times_set D -> src_times_set D'.
Proof.
  intros HM HS HD p m d E. destruct (HM p) as [H1 H2].
  assert (Hdec : forall f, {takes_part incl f p /\ fget f p <> None} + {~ (takes_part incl f p /\ fget f p <> None)}).
  { intros f. destruct (fget f p) as [n|] eqn:Ef; [|right; intros [_ H]; congruence].
    unfold takes_part. destruct p as [|c p'].
    - left. split; [left; reflexivity|discriminate].
    - destruct (fget f []) as [[| |]|] eqn:Er; try (right; intros [[H|[H _]] _]; congruence).
      destruct (visible incl f (c :: p')) eqn:Ev; [left; split; [right; split; [reflexivity|reflexivity]|discriminate]|].
      right. intros [[H|[_ H]] _]; congruence. }
  (* where the mirror clause applies, the file is the source's or the old destination's *)
  assert (Hat : mirror_at now_far normalize_unix diff Unix S D D' p -> exists t, m = TSet t).
  { unfold mirror_at. destruct (fget S p) as [[ms bs| |t k]|] eqn:ES; intros Hm; try congruence.
    - destruct Hm as [Hm|(b0 & m0 & ED & _ & Hm)].
      + rewrite Hm in E. inversion E; subst. exact (HS p m d ES).
      + rewrite Hm, ED in E. inversion E; subst. exact (HD p m d ED).
    - destruct Hm as (t' & k' & Hm & _). congruence. }
  destruct (Hdec S) as [HS1|HS1]; [exact (Hat (H1 (or_introl HS1)))|].
  destruct (Hdec D) as [HD1|HD1]; [exact (Hat (H1 (or_intror HD1)))|].
  rewrite (H2 HS1 HD1) in E. exact (HD p m d E).
Qed.

From RJ Require Import Proofs.IdemProofs Proofs.IdemMain Proofs.CrashMain.

(* a sync that does nothing: Ok, no mutating command, no content fetched, no prompt, "Nothing to do" *)
Definition quiet (r : result) : Prop :=
  r_ok r = true /\ filter mutating (r_dest_trace r) = [] /\ (forall p, ~ In (CGetFileContent p) (r_src_trace r)) /\
  r_prompts r = [] /\ stats_nothing (r_stats r) = true.

(* job j is settled in store F: run on F it is quiet and leaves its destination as it is *)
Definition settled (F : store) (j : job) : Prop :=
  quiet (run_job j F) /\ d_fs (r_dest (run_job j F)) = sget F (j_dst j).

Lemma run_job_ext j st st' : (forall i, sget st i = sget st' i) -> run_job j st = run_job j st'.
Proof. intros H. unfold run_job. rewrite !H. reflexivity. Qed.

Lemma settled_spec_noop jobs F : (forall j, In j jobs -> settled F j) ->
  forall st, (forall i, sget st i = sget F i) ->
  sp_ok (run_spec jobs st) = true /\ (forall i, sget (sp_store (run_spec jobs st)) i = sget F i) /\
  length (sp_runs (run_spec jobs st)) = length jobs /\ Forall quiet (sp_runs (run_spec jobs st)).
Proof.
  induction jobs as [|j rest IH]; intros Hs st Hext; cbn [run_spec].
  - cbn. repeat split; auto.
  - destruct (Hs j (or_introl eq_refl)) as [Hq Hd].
    rewrite (run_job_ext j st F Hext). destruct Hq as (Hok & Hq). rewrite Hok.
    assert (Hext' : forall i, sget (sset st (j_dst j) (d_fs (r_dest (run_job j F)))) i = sget F i).
    { intros i. destruct (Nat.eq_dec i (j_dst j)) as [->|Hne]; [rewrite sget_sset_eq; exact Hd|rewrite sget_sset_ne by exact Hne; apply Hext]. }
    destruct (IH (fun j' H => Hs j' (or_intror H)) _ Hext') as (I1 & I2 & I3 & I4).
    cbn [sp_ok sp_store sp_runs length]. repeat split; auto. constructor; [split; assumption|exact I4].
Qed.

(* Running the spec a second time does nothing: if the first run exited 0, every sync of it ran without skips
   (no dry run, Unix destination, same-time files skipped), each source had set times and well-formed link texts
   when it was read, and no sync writes to the destination or the source of an EARLIER sync of the spec (all
   destinations distinct; a destination may be the source of a later sync: A -> B, B -> C) - then run again on the
   trees the first run left, every sync returns Ok, sends no mutating command, fetches no content, asks nothing and
   reports "Nothing to do"; the status is 0 and every tree is as it was. *)
Theorem spec_twice jobs st :
  store_ok st ->
  sp_ok (run_spec jobs st) = true ->
  Forall (fun t => let j := t_job t in let S := sget (t_store t) (j_src j) in
            src_times_set S /\ links_utf8 S /\ j_src j <> j_dst j /\
            r_skipped (t_res t) = [] /\ r_root_skipped (t_res t) = false /\
            cf_dry (j_cfg j) = false /\ cf_fl (j_cfg j) = Unix /\ b_same (cf_b (j_cfg j)) = BSkip) (spec_trace jobs st) ->
  (forall pre t post, spec_trace jobs st = pre ++ t :: post ->
     forall t', In t' post -> j_dst (t_job t') <> j_dst (t_job t) /\ j_dst (t_job t') <> j_src (t_job t)) ->
  let F := sp_store (run_spec jobs st) in
  sp_ok (run_spec jobs F) = true /\ (forall i, sget (sp_store (run_spec jobs F)) i = sget F i) /\
  length (sp_runs (run_spec jobs F)) = length jobs /\ Forall quiet (sp_runs (run_spec jobs F)).
Proof.
  intros Hst Hok Hall Hni F.
  apply settled_spec_noop; [|reflexivity].
  (* every job of the spec was started (exit 0), so it is in the trace *)
  destruct (proj1 (spec_ok_iff jobs st) Hok) as [Hlen Hoks].
  rewrite runs_of_trace, map_length in Hlen.
  pose proof (trace_jobs jobs st) as Hj. rewrite Hlen, firstn_all in Hj.
  intros j Hin. rewrite <- Hj in Hin. apply in_map_iff in Hin as (t & <- & Ht).
  apply in_split in Ht as (pre & post & E).
  rewrite Forall_forall in Hall. specialize (Hall t). rewrite E in Hall. specialize (Hall (in_elt t pre post)). cbv zeta in Hall.
  destruct Hall as (Hts & Hlk & Hne & Hsk & Hrs & Hdry & Hfl & Hsame).
  destruct (spec_final_trees jobs st pre t post E Hne (Hni pre t post E)) as [Fd Fs].
  fold F in Fd, Fs.
  destruct (spec_stores_ok jobs st Hst) as [Hsts _]. rewrite Forall_forall in Hsts.
  assert (Htin : In t (spec_trace jobs st)) by (rewrite E; apply in_elt).
  specialize (Hsts t Htin).
  pose proof (trace_is_runs jobs st) as Hr. rewrite Forall_forall in Hr. specialize (Hr t Htin).
  assert (Hokt : r_ok (t_res t) = true).
  { rewrite runs_of_trace in Hoks. rewrite forallb_forall in Hoks. apply Hoks. apply in_map. exact Htin. }
  destruct (Hsts (j_src (t_job t))) as [HwS HuS]. destruct (Hsts (j_dst (t_job t))) as [HwD HuD].
  unfold run_job in Hr. rewrite Hr in Hsk, Hrs, Hokt, Fd.
  destruct (run_top_again (j_cfg (t_job t)) _ _ (j_anc (t_job t)) (j_ans (t_job t)) (j_bits (t_job t)) (j_ex (t_job t)) (j_ft (t_job t))
              (j_anc (t_job t)) (j_ans (t_job t)) (j_bits (t_job t)) (j_ft (t_job t))
              HuS HwS HuD HwD Hts Hlk Hokt Hsk Hrs Hdry Hfl Hsame) as (T1 & T2 & T3 & T4 & T5 & T6).
  unfold settled, quiet, run_job. rewrite Fs, Fd. repeat split; assumption.
Qed.

From RJ Require Import Proofs.LinkTexts.

Definition store_good (st : store) : Prop :=
  forall i, wf_fs (sget st i) /\ unique_keys (sget st i) /\ src_times_set (sget st i) /\ links_utf8 (sget st i).

Definition clean_run (t : job * store * result) : Prop :=
  r_skipped (t_res t) = [] /\ r_root_skipped (t_res t) = false /\ cf_dry (j_cfg (t_job t)) = false /\ cf_fl (j_cfg (t_job t)) = Unix.

(* If all trees are good at the start (well-formed, all times set, all link texts well-formed UTF-8) and no sync of
   the spec skips anything (no dry run, Unix destinations), then EVERY sync that returns Ok mirrors its source as it
   was when that sync began - however many earlier syncs had written it - and every store along the way is good. *)
Theorem spec_chain_mirrors jobs : forall st, store_good st ->
  Forall clean_run (spec_trace jobs st) ->
  Forall (fun t =>
    let j := t_job t in let S := sget (t_store t) (j_src j) in let D := sget (t_store t) (j_dst j) in
    store_good (t_store t) /\
    (r_ok (t_res t) = true ->
     mirror now_far (excl_incl (j_ex j)) normalize_unix (cf_diff (j_cfg j)) Unix S D (d_fs (r_dest (t_res t)))))
    (spec_trace jobs st).
Proof.
  induction jobs as [|j rest IH]; intros st Hg Hclean; cbn [spec_trace] in *; [constructor|].
  inversion Hclean as [|t0 l0 Hc0 Hrest]; subst.
  destruct Hc0 as (Hsk & Hrs & Hdry & Hfl). cbn [t_res t_job fst snd] in Hsk, Hrs, Hdry, Hfl.
  destruct (Hg (j_src j)) as (HwS & HuS & HtS & HlS). destruct (Hg (j_dst j)) as (HwD & HuD & HtD & HlD).
  assert (Hm : r_ok (run_job j st) = true ->
               mirror now_far (excl_incl (j_ex j)) normalize_unix (cf_diff (j_cfg j)) Unix (sget st (j_src j)) (sget st (j_dst j))
                      (d_fs (r_dest (run_job j st)))).
  { intros Hok. unfold run_job in *. apply run_top_mirror_unconditional; assumption. }
  constructor; [cbn [t_res t_job t_store fst snd]; split; [exact Hg|exact Hm]|].
  destruct (r_ok (run_job j st)) eqn:Eok; [|constructor].
  apply IH; [|exact Hrest].
  intros i. destruct (Nat.eq_dec i (j_dst j)) as [->|Hne].
  - rewrite sget_sset_eq. unfold run_job in *.
    destruct (run_top_wfu (j_cfg j) (sget st (j_src j)) (sget st (j_dst j)) (j_anc j) (j_ans j) (j_bits j) (j_ex j) (j_ft j) HuD HwD) as [Hw' Hu'].
    split; [exact Hw'|]. split; [exact Hu'|]. split.
    + eapply mirror_keeps_times_set; [apply Hm; reflexivity|exact HtS|exact HtD].
    + apply (proj2 (run_top_keeps_links_utf8 (j_cfg j) _ _ (j_anc j) (j_ans j) (j_bits j) (j_ex j) (j_ft j) HuS HwS HuD HwD HlS HlD Hfl)).
  - rewrite sget_sset_ne by exact Hne. apply Hg.
Qed.
