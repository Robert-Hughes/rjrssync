(* The composed system (Model/LaunchSystem.v): safety, absence of deadlock, termination. *)
From RJ Require Import Base.Prelude Model.Handshake Model.LaunchSystem Proofs.HandshakeProofs.
Local Open Scope N_scope.

Lemma sys_step_some c s y y' :
  sys_step c s y = Some y' ->
  exists m t, s_res y = None /\ queue_of s y = m :: t /\ deliverable (s_st y) (m :: t) = true /\
    y' = (let ro' := match s with Stdout => t | Stderr => s_ro y end in
          let re' := match s with Stdout => s_re y | Stderr => t end in
          match boss_step c true (s_st y) (s, m) with
          | Continue st' w => mkSys ro' re' st' None (s_writes y + (if w then 1 else 0))
          | Done r w => mkSys ro' re' (s_st y) (Some r) (s_writes y + (if w then 1 else 0))
          end).
Proof.
  unfold sys_step. destruct (s_res y); [discriminate|]. destruct (queue_of s y) as [|m t]; [discriminate|].
  destruct (deliverable _ _) eqn:D; [|discriminate]. intros [= <-]. exists m, t. auto.
Qed.

Lemma sys_run_preserves c (P : sys -> Prop) :
  (forall s y y', P y -> sys_step c s y = Some y' -> P y') -> forall sched y, P y -> P (sys_run c sched y).
Proof.
  intros Hstep. induction sched as [|s t IH]; intros y I; cbn [sys_run]; [exact I|].
  destruct (sys_step c s y) as [y'|] eqn:E; eauto.
Qed.

(* Every effective step consumes one message: at most |stdout| + |stderr| of them. *)
Lemma sys_step_measure c s y y' : sys_step c s y = Some y' -> (sys_measure y' < sys_measure y)%nat.
Proof.
  intros H. apply sys_step_some in H as (m & t & _ & Q & _ & ->). unfold sys_measure.
  destruct s; cbn [queue_of] in Q; rewrite Q; destruct (boss_step _ _ _ _); cbn; lia.
Qed.

Section System.
Variable c : hcfg.
Variable v : str.
Variable p : N.
Hypothesis Hp : p < 65536.

(* Invariant for a doer that announces our version: handshake_ok's, with the key writes counted. *)
Definition sys_inv (y : sys) : Prop :=
  (s_res y = None /\ exists ko be,
      stream_inv c v p ko (s_ro y) /\ stream_inv c v p be (s_re y) /\
      is_nil (s_ro y) && is_nil (s_re y) = false /\
      s_st y = st_of ko (is_nil (s_ro y)) (is_nil (s_re y)) /\
      s_writes y = (if ko then 1 else 0)%nat)
  \/ (s_res y = Some (LSuccess p O) /\ s_writes y = 1%nat).

Lemma sys_step_inv (Hv : v = own_version c) s y y' : sys_inv y -> sys_step c s y = Some y' -> sys_inv y'.
Proof.
  intros [(_ & ko & be & Io & Ie & Hne & St & W)|[Rs _]] H; apply sys_step_some in H as (m & t & Rn & Q & D & ->);
    [|congruence].
  rewrite St in *.
  (* a Completed line is only deliverable when the key is there *)
  assert (Hk : forall l, m = MCompleted l -> ko = true) by (intros l ->; destruct ko; [reflexivity | exact D]).
  destruct s; cbn [queue_of] in Q; rewrite Q in *.
  - apply stream_inv_cons in Io as G. destruct (good_cons _ _ _ _ _ _ G) as (Io' & _ & Hl).
    pose proof (good_boss_step c v p Stdout ko ko m t (is_nil (s_re y)) Hv Hp G (fun _ => eq_refl) Hk) as B.
    cbn [st_for is_nil key_after] in *. rewrite B. destruct (is_nil t && is_nil (s_re y)) eqn:N.
    + right. apply andb_true_iff in N as [N _]. rewrite (Hk _ (Hl N)) in W. cbn. split; [reflexivity | lia].
    + left. split; [reflexivity|]. exists (flag_after m ko), be. cbn [s_ro s_re s_st s_writes]. repeat split; auto.
      rewrite W. destruct ko, m; reflexivity.
  - apply stream_inv_cons in Ie as G. destruct (good_cons _ _ _ _ _ _ G) as (Ie' & _ & Hl).
    pose proof (good_boss_step c v p Stderr ko be m t (is_nil (s_ro y)) Hv Hp G ltac:(discriminate) Hk) as B.
    cbn [st_for is_nil key_after] in *. rewrite B, andb_comm. destruct (is_nil (s_ro y) && is_nil t) eqn:N.
    + right. apply andb_true_iff in N as [_ N]. rewrite (Hk _ (Hl N)) in W. cbn. split; [reflexivity | lia].
    + left. split; [reflexivity|]. exists ko, (flag_after m be). cbn [s_ro s_re s_st s_writes]. repeat split; auto.
      rewrite W. destruct ko; reflexivity.
Qed.

Lemma sys_inv_init ro re : good_stream c v p false ro -> good_stream c v p false re -> sys_inv (sys_init ro re).
Proof.
  intros Go Ge. left. split; [reflexivity|]. exists false, false. cbn [sys_init s_ro s_re s_st s_writes].
  rewrite (is_nil_good _ _ _ _ _ Go), (is_nil_good _ _ _ _ _ Ge). repeat split; right; assumption.
Qed.

(* Stdout's next message is deliverable (its Completed line follows its own Started line, which
   sent the key); once stdout is finished the key has been sent and anything on stderr is. *)
Lemma good_head_deliverable ko be ro re od ed :
  stream_inv c v p ko ro -> stream_inv c v p be re -> is_nil ro && is_nil re = false ->
  deliverable (st_of ko od ed) ro = true \/ deliverable (st_of ko od ed) re = true.
Proof.
  intros [[-> ->]|G] Ie Hne.
  - right. destruct Ie as [[-> _]|G]; [discriminate Hne|]. inversion G; reflexivity.
  - left. inversion G; reflexivity.
Qed.

(* No deadlock: while the loop has not returned, some stream can deliver its next message. *)
Lemma sys_inv_progress y : sys_inv y -> s_res y = None -> sys_stuck c y = false.
Proof.
  intros [(Rn & ko & be & Io & Ie & Hne & St & W)|[Rs _]] Hn; [|congruence].
  destruct (good_head_deliverable ko be _ _ (is_nil (s_ro y)) (is_nil (s_re y)) Io Ie Hne) as [D|D];
    unfold sys_stuck, sys_step; rewrite Rn, St; cbn [queue_of]; rewrite D.
  - destruct (s_ro y); [discriminate D | reflexivity].
  - destruct (s_re y) eqn:E; [discriminate D|].
    destruct (deliverable _ (s_ro y)); [destruct (s_ro y)|]; reflexivity.
Qed.
End System.

(* A doer of another version: the loop returns IncompatibleVersion (or is still running), no key is written. *)
Definition sys_inv_mismatch (c : hcfg) (v : str) (p : N) (y : sys) : Prop :=
  s_writes y = 0%nat /\
  ((s_res y = None /\ good_stream c v p false (s_ro y) /\ good_stream c v p false (s_re y)) \/ s_res y = Some (LIncompat v)).

Lemma sys_step_inv_mismatch c v p s y y' :
  v <> own_version c -> sys_inv_mismatch c v p y -> sys_step c s y = Some y' -> sys_inv_mismatch c v p y'.
Proof.
  intros Hv [W [(_ & Go & Ge)|Rs]] H; apply sys_step_some in H as (m & t & Rn & Q & _ & ->); [|congruence].
  unfold sys_inv_mismatch. destruct s; cbn [queue_of] in Q; rewrite Q in *.
  - destruct (bad_boss_step c v p true Stdout (s_st y) m t Hv Go) as [[Gt ->]| ->]; cbn; rewrite W; auto.
  - destruct (bad_boss_step c v p true Stderr (s_st y) m t Hv Ge) as [[Gt ->]| ->]; cbn; rewrite W; auto.
Qed.

Lemma sys_inv_mismatch_init c v p ro re :
  good_stream c v p false ro -> good_stream c v p false re -> sys_inv_mismatch c v p (sys_init ro re).
Proof. intros Go Ge. split; [reflexivity | left; auto]. Qed.

Definition doer_streams (c : hcfg) (v : str) (p : N) (no1 no2 ne1 ne2 : list str) (rest_o rest_e : list read) : sys :=
  sys_init (reader c (transcript c v p no1 no2 rest_o)) (reader c (transcript c v p ne1 ne2 rest_e)).

Lemma system_safe c v p no1 no2 ne1 ne2 rest_o rest_e sched :
  prefixes_ok c -> p < 65536 ->
  Forall (fun l => is_noise c l = true) no1 -> Forall (fun l => is_noise c l = true) no2 ->
  Forall (fun l => is_noise c l = true) ne1 -> Forall (fun l => is_noise c l = true) ne2 ->
  let y := sys_run c sched (doer_streams c v p no1 no2 ne1 ne2 rest_o rest_e) in
  (v = own_version c ->
     (s_res y = None /\ (s_writes y <= 1)%nat) \/ (s_res y = Some (LSuccess p O) /\ s_writes y = 1%nat)) /\
  (v <> own_version c ->
     s_writes y = 0%nat /\ (s_res y = None \/ s_res y = Some (LIncompat v))).
Proof.
  intros P Hp Ho1 Ho2 He1 He2 y. subst y. unfold doer_streams.
  pose proof (reader_transcript_good c v p no1 no2 rest_o P Ho1 Ho2) as Go.
  pose proof (reader_transcript_good c v p ne1 ne2 rest_e P He1 He2) as Ge.
  split; intros Hv.
  - destruct (sys_run_preserves c _ (sys_step_inv c v p Hp Hv) sched _ (sys_inv_init c v p _ _ Go Ge))
      as [(Rn & ko & _ & _ & _ & _ & _ & W)|[Rs W]]; [left | right; auto].
    split; [exact Rn|]. rewrite W. destruct ko; lia.
  - destruct (sys_run_preserves c _ (fun s y y' => sys_step_inv_mismatch c v p s y y' Hv) sched _
                (sys_inv_mismatch_init c v p _ _ Go Ge)) as [W [[Rn _]|Rs]]; auto.
Qed.

Lemma system_progress c v p no1 no2 ne1 ne2 rest_o rest_e sched :
  prefixes_ok c -> p < 65536 -> v = own_version c ->
  Forall (fun l => is_noise c l = true) no1 -> Forall (fun l => is_noise c l = true) no2 ->
  Forall (fun l => is_noise c l = true) ne1 -> Forall (fun l => is_noise c l = true) ne2 ->
  let y := sys_run c sched (doer_streams c v p no1 no2 ne1 ne2 rest_o rest_e) in
  sys_stuck c y = true -> s_res y = Some (LSuccess p O) /\ s_writes y = 1%nat.
Proof.
  intros P Hp Hv Ho1 Ho2 He1 He2 y Hs. subst y. unfold doer_streams in *.
  pose proof (reader_transcript_good c v p no1 no2 rest_o P Ho1 Ho2) as Go.
  pose proof (reader_transcript_good c v p ne1 ne2 rest_e P He1 He2) as Ge.
  pose proof (sys_run_preserves c _ (sys_step_inv c v p Hp Hv) sched _ (sys_inv_init c v p _ _ Go Ge)) as I.
  destruct I as [[Rn X]|[Rs W]]; [|auto].
  pose proof (sys_inv_progress c v p _ (or_introl (conj Rn X)) Rn) as Pg. congruence.
Qed.
