(* The F6b repair in the model: a deletion that failed is remembered, and every later command for that path
   or anything inside it is refused without any effect - so whatever is still there (a symlink, say) is
   neither written to nor through by the commands the boss had already queued behind the deletion. *)
From RJ Require Import Base.Prelude Model.Core Model.Fs Model.Sync Proofs.FsProofs Proofs.PathLemmas.

Lemma is_prefix_trans a : forall b c, is_prefix a b = true -> is_prefix b c = true -> is_prefix a c = true.
Proof.
  induction a as [|x a IH]; intros b c H1 H2; [reflexivity|].
  destruct b as [|y b]; [discriminate|]. destruct c as [|z c]; [discriminate|].
  cbn [is_prefix] in *. destruct (str_eq_dec x y) as [->|]; [|discriminate].
  destruct (str_eq_dec y z) as [->|]; [|discriminate]. eapply IH; eauto.
Qed.

Definition path_cmd (c : cmd) : option path :=
  match c with
  | CCreateOrUpdateFile p _ _ _ | CCreateSymlink p _ _ | CCreateFolder p | CDeleteFile p | CDeleteFolder p | CDeleteSymlink p _ => Some p
  | _ => None
  end.
Definition is_del (c : cmd) : bool := match c with CDeleteFile _ | CDeleteFolder _ | CDeleteSymlink _ _ => true | _ => false end.

(* a blocked command has no effect at all: not on the tree, not through a link, not on the event log *)
Theorem blocked_refused fl st c p : path_cmd c = Some p -> blocked_at st p = true -> doer_exec fl st c = (st, Some ERefused).
Proof. intros Hp Hb. destruct c; try discriminate Hp; inversion Hp; subst; cbn [doer_exec]; rewrite Hb; reflexivity. Qed.

(* blocking is inherited downwards and never lifted *)
Lemma blocked_below st p q : blocked_at st p = true -> is_prefix p q = true -> blocked_at st q = true.
Proof.
  unfold blocked_at. intros H Hpq. apply existsb_exists in H as (x & Hx & Hxp). apply existsb_exists.
  exists x. split; [exact Hx|]. eapply is_prefix_trans; eauto.
Qed.

Lemma blocked_stays fl st c p : blocked_at st p = true -> blocked_at (fst (doer_exec fl st c)) p = true.
Proof.
  unfold blocked_at. intros H. apply existsb_exists in H as (x & Hx & Hxp). apply existsb_exists.
  exists x. split; [apply faildel_grows; exact Hx|exact Hxp].
Qed.

Lemma blocked_note st p q : is_prefix p q = true -> blocked_at (note_faildel st p) q = true.
Proof. intros H. unfold blocked_at, note_faildel. cbn. rewrite H. reflexivity. Qed.

Lemma deletes_iff c p : deletes c p <-> is_del c = true /\ path_cmd c = Some p.
Proof.
  split; [intros []; split; reflexivity|]. intros [Hd Hp].
  destruct c; try discriminate Hd; inversion Hp; subst; constructor.
Qed.
Lemma path_cmd_cmd_path c p : path_cmd c = Some p -> cmd_path c = Some p.
Proof. destruct c; try discriminate; intros H; exact H. Qed.

(* a deletion that is answered with an error blocks its path and everything inside it from then on *)
Theorem failed_delete_blocks fl st c p e q :
  is_del c = true -> path_cmd c = Some p -> snd (doer_exec fl st c) = Some e ->
  is_prefix p q = true -> blocked_at (fst (doer_exec fl st c)) q = true.
Proof.
  intros Hd Hp He Hpq. assert (Hdel : deletes c p) by (apply deletes_iff; auto).
  destruct (deletes_path c p Hdel) as (Hcp & Hc).
  destruct (doer_exec_nc fl st c Hc) as [| |e' Hb|p' e' Hd'| | |]; try discriminate He.
  - eapply blocked_below; [apply Hb; exact Hdel|exact Hpq].
  - apply deletes_path in Hd' as [Hd' _]. replace p' with p by congruence. apply blocked_note. exact Hpq.
Qed.

(* the same for a failure injected by the fault plan (the harness hook records it the same way) *)
Lemma injected_delete_blocks st c p q : is_del c = true -> path_cmd c = Some p -> is_prefix p q = true ->
  blocked_at (inj_state st c) q = true.
Proof.
  intros Hd Hp Hpq. assert (Hdel : deletes c p) by (apply deletes_iff; auto).
  destruct Hdel; apply blocked_note; exact Hpq.
Qed.
