(* The fixed ELF/PE rewriters never panic: every outcome is Ok or Err, for every input and build mode. *)
From RJ Require Import Base.Prelude Model.LE Model.Elf Model.Pe Proofs.LEProofs.
Local Open Scope N_scope.

Ltac np_go := repeat (cbv beta iota zeta; np_step).

Lemma np_validate_elf m bs : np (validate_elf true m bs).
Proof. unfold validate_elf. np_go. Qed.

Lemma np_extract_elf_loop m bs name shoff se noff count : forall idx,
  np (extract_elf_loop true m bs name shoff se noff idx count).
Proof.
  induction count as [|c IH]; intros idx; cbn [extract_elf_loop]; [reflexivity|].
  np_go; try apply IH.
Qed.

Lemma np_extract_elf m bs name : np (extract_elf_gen true m bs name).
Proof.
  unfold extract_elf_gen. np_go; try apply np_validate_elf; try apply np_extract_elf_loop.
Qed.

Lemma np_bump_offsets m se k count : forall sht idx, np (bump_offsets true m sht se k idx count).
Proof.
  induction count as [|c IH]; intros sht idx; cbn [bump_offsets]; [reflexivity|].
  np_go; try apply IH.
Qed.

Lemma np_add_elf m bs name p : np (add_elf_gen true m bs name p).
Proof.
  unfold add_elf_gen. np_go; try apply np_validate_elf; try apply np_bump_offsets.
Qed.

Lemma np_validate_pe m bs : np (validate_pe true m bs).
Proof. unfold validate_pe. np_go. Qed.

Lemma np_extract_pe_loop m bs name sh count : forall idx, np (extract_pe_loop true m bs name sh idx count).
Proof.
  induction count as [|c IH]; intros idx; cbn [extract_pe_loop]; [reflexivity|].
  np_go; try apply IH.
Qed.

Lemma np_extract_pe m bs name : np (extract_pe_gen true m bs name).
Proof. unfold extract_pe_gen. np_go; try apply np_validate_pe; try apply np_extract_pe_loop. Qed.

Lemma np_bump_ptrs m sh fa count : forall bs idx, np (bump_ptrs true m bs sh fa idx count).
Proof.
  induction count as [|c IH]; intros bs idx; cbn [bump_ptrs]; [reflexivity|].
  np_go; try apply IH.
Qed.

Lemma np_add_pe m bs name p : np (add_pe_gen true m bs name p).
Proof.
  unfold add_pe_gen. np_go; try apply np_validate_pe; try apply np_bump_ptrs.
Qed.

Lemma no_panic_all : forall (m : mode) (bytes name payload : list byte) (site : str),
  add_elf m bytes name payload <> Panic site /\ extract_elf m bytes name <> Panic site /\
  add_pe m bytes name payload <> Panic site /\ extract_pe m bytes name <> Panic site.
Proof.
  intros. repeat split; apply np_not_panic;
    [apply np_add_elf | apply np_extract_elf | apply np_add_pe | apply np_extract_pe].
Qed.

Lemma total_all : forall (m : mode) (bytes name payload : list byte),
  ((exists r, add_elf m bytes name payload = Ok r) \/ (exists e, add_elf m bytes name payload = Err e)) /\
  ((exists r, extract_elf m bytes name = Ok r) \/ (exists e, extract_elf m bytes name = Err e)) /\
  ((exists r, add_pe m bytes name payload = Ok r) \/ (exists e, add_pe m bytes name payload = Err e)) /\
  ((exists r, extract_pe m bytes name = Ok r) \/ (exists e, extract_pe m bytes name = Err e)).
Proof.
  intros. repeat split; apply np_total;
    [apply np_add_elf | apply np_extract_elf | apply np_add_pe | apply np_extract_pe].
Qed.
