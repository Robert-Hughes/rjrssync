(* The frame lemma of the stack-machine parser and what follows from it:
   text-level anchoring "^(?:" ++ pat ++ ")$" is AST-level anchoring. *)
From RJ Require Import Base.Prelude Model.Regex Model.RegexParse Model.Filters.
From Coq Require Import String.
Local Open Scope char_scope.

Definition ext (s : pst) (extra : list frame) : pst := mkPst (stk s ++ extra) (md s).

Lemma apply_act_frame a below extra s' :
  apply_act a below = Some s' -> apply_act a (below ++ extra) = Some (ext s' extra).
Proof.
  destruct a as [f m|f n m|x m]; cbn [apply_act].
  - intros H; injection H as <-. reflexivity.
  - intros H; injection H as <-. reflexivity.
  - destruct below as [|g b]; [discriminate|]. intros H; injection H as <-. reflexivity.
Qed.

Lemma step_frame s c s' extra : step s c = Some s' -> step (ext s extra) c = Some (ext s' extra).
Proof.
  unfold step, ext. destruct s as [[|f below] m]; cbn [stk md app]; [discriminate|].
  destruct (step_top f m c) as [a|]; [|discriminate].
  apply apply_act_frame.
Qed.

Lemma run_none t : fold_left ostep t None = None.
Proof. induction t; cbn; auto. Qed.

Lemma run_frame t : forall s s' extra, run s t = Some s' -> run (ext s extra) t = Some (ext s' extra).
Proof.
  unfold run. induction t as [|c t IH]; cbn [fold_left ostep]; intros s s' extra H.
  - injection H as <-. reflexivity.
  - destruct (step s c) as [s1|] eqn:E; [|rewrite run_none in H; discriminate].
    rewrite (step_frame _ _ _ extra E). apply IH. exact H.
Qed.

Lemma run_app s t1 t2 : run s (t1 ++ t2) = match run s t1 with Some s1 => run s1 t2 | None => None end.
Proof. unfold run. rewrite fold_left_app. destruct (fold_left ostep t1 (Some s)); auto. apply run_none. Qed.


Definition anchored (r : re) : re := cats [Bol; Group r; Eol].

Definition g0 : frame := mkFrame [] [Bol] false.

Lemma run_prefix : run init ["^"; "("; "?"; ":"] = Some (ext init [g0]).
Proof. reflexivity. Qed.

Lemma final_close f m : final_mode m = true ->
  run (mkPst [f; g0] m) [")"; "$"] = Some (mkPst [mkFrame [] [Eol; Group (close f); Bol] false] Normal).
Proof. destruct m; cbn [final_mode]; intros H; try discriminate; reflexivity. Qed.

Theorem anchor_wrap p r : parse p = Some r -> parse (wrap p) = Some (anchored r).
Proof.
  unfold parse. destruct (run init p) as [[[|f [|g st]] m]|] eqn:E; try discriminate.
  destruct (final_mode m) eqn:F; [|discriminate].
  intros H; injection H as <-.
  unfold wrap.
  pose proof (run_app init ["^"; "("; "?"; ":"] (p ++ [")"; "$"])) as X1. rewrite X1; clear X1.
  rewrite run_prefix.
  pose proof (run_app (ext init [g0]) p [")"; "$"]) as X2. rewrite X2; clear X2.
  rewrite (run_frame _ _ _ _ E).
  change (ext {| stk := [f]; md := m |} [g0]) with (mkPst [f; g0] m).
  pose proof (final_close f m F) as X3. rewrite X3. reflexivity.
Qed.

(* The defect F1: the code before the fix wrapped a pattern as "^" ++ pat ++ "$" (wrap_old), where the anchors are
   captured by the outer branches of a top-level alternation: "a|b" is read as (^a)|(b$). *)
Lemma old_wrap_escapes :
  parse (wrap_old ["a"; "|"; "b"]) =
  Some (Alt (cats [Bol; lit false "a"]) (cats [lit false "b"; Eol])).
Proof. reflexivity. Qed.

(* A pattern without a top-level alternation is read the same under either wrapping (one example). *)
Lemma old_wrap_no_alternation_is_fine :
  parse (wrap_old ["a"; "b"]) = Some (cats [Bol; lit false "a"; lit false "b"; Eol]).
Proof. reflexivity. Qed.
