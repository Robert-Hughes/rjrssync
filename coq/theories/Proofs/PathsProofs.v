(* Link-text normalisation round trips (C04, C12) for the Unix flavour. *)
From RJ Require Import Base.Prelude Model.Core Model.Fs Model.Paths.

Definition nosep (sep : ascii) (w : str) : Prop := contains sep w = false.

Lemma contains_app c a b : contains c (a ++ b) = contains c a || contains c b.
Proof. unfold contains. apply existsb_app. Qed.

Lemma split_on_nonnil sep s : split_on sep s <> [].
Proof.
  induction s as [|c r IH]; cbn [split_on]; [discriminate|].
  destruct (Ascii.eqb c sep); [discriminate|]. destruct (split_on sep r); discriminate.
Qed.

Lemma nosep_cons sep c w : nosep sep (c :: w) <-> Ascii.eqb c sep = false /\ nosep sep w.
Proof. unfold nosep, contains. cbn [existsb]. rewrite orb_false_iff, Ascii.eqb_sym. reflexivity. Qed.

Lemma split_on_nosep sep s : Forall (nosep sep) (split_on sep s).
Proof.
  induction s as [|c r IH]; cbn [split_on]; [constructor; [reflexivity|constructor]|].
  destruct (Ascii.eqb c sep) eqn:E.
  - constructor; [reflexivity|exact IH].
  - destruct (split_on sep r) as [|w ws]; [constructor; [|constructor]|].
    + apply nosep_cons. split; [exact E|reflexivity].
    + inversion IH; subst. constructor; [apply nosep_cons; split|]; assumption.
Qed.

Lemma split_on_single sep w : nosep sep w -> split_on sep w = [w].
Proof.
  induction w as [|c r IH]; intros H; [reflexivity|]. apply nosep_cons in H as [H1 H2].
  cbn [split_on]. rewrite H1, IH by exact H2. reflexivity.
Qed.

Lemma split_on_app sep w r : nosep sep w -> split_on sep (w ++ sep :: r) = w :: split_on sep r.
Proof.
  induction w as [|c w IH]; intros H.
  - cbn [app split_on]. rewrite Ascii.eqb_refl. reflexivity.
  - apply nosep_cons in H as [H1 H2]. cbn [app split_on]. rewrite H1, IH by exact H2. reflexivity.
Qed.

Lemma split_join sep comps : comps <> [] -> Forall (nosep sep) comps -> split_on sep (join_with sep comps) = comps.
Proof.
  induction comps as [|x r IH]; intros Hne HF; [congruence|].
  inversion HF as [|? ? Hx Hr]; subst. destruct r as [|y r].
  - cbn [join_with]. apply split_on_single. exact Hx.
  - change (join_with sep (x :: y :: r)) with (x ++ sep :: join_with sep (y :: r)).
    rewrite split_on_app by exact Hx. rewrite IH; [reflexivity|discriminate|exact Hr].
Qed.

(* canonical component lists: what unix_components produces *)
Definition canon (comps : list str) : Prop :=
  Forall (fun w => nonempty w = true) comps /\ Forall (nosep slash) comps /\
  match comps with _ :: r => Forall (fun w => is_dot w = false) r | [] => True end.

Lemma Forall_filter {A} (P : A -> Prop) f l : Forall P l -> Forall P (filter f l).
Proof. induction 1; cbn; [constructor|]. destruct (f x); [constructor|]; auto. Qed.
Lemma filter_true {A} (f : A -> bool) l : Forall (fun x => f x = true) l -> filter f l = l.
Proof. induction 1; cbn; [reflexivity|]. rewrite H. f_equal. assumption. Qed.
Lemma Forall_filter_self {A} (f : A -> bool) l : Forall (fun x => f x = true) (filter f l).
Proof. induction l; cbn; [constructor|]. destruct (f a) eqn:E; [constructor|]; auto. Qed.

Lemma unix_components_cons s : unix_components s =
  match filter nonempty (split_on slash s) with c :: r => c :: filter (fun x => negb (is_dot x)) r | [] => [] end.
Proof.
  unfold unix_components. destruct (filter nonempty (split_on slash s)) as [|c r]; [reflexivity|].
  destruct (is_dot c) eqn:Ed; [reflexivity|]. cbn [filter]. rewrite Ed. reflexivity.
Qed.

Lemma unix_components_canon s : canon (unix_components s).
Proof.
  rewrite unix_components_cons.
  assert (H1 : Forall (fun w => nonempty w = true) (filter nonempty (split_on slash s))) by apply Forall_filter_self.
  assert (H2 : Forall (nosep slash) (filter nonempty (split_on slash s))) by (apply Forall_filter, split_on_nosep).
  destruct (filter nonempty (split_on slash s)) as [|c r]; [repeat split; constructor|].
  inversion H1; subst. inversion H2; subst. split; [|split].
  - constructor; [assumption | apply Forall_filter; assumption].
  - constructor; [assumption | apply Forall_filter; assumption].
  - eapply Forall_impl; [|apply Forall_filter_self]. cbn. intros a Ha. apply negb_true_iff in Ha. exact Ha.
Qed.

Lemma unix_components_join comps : canon comps -> unix_components (join_with slash comps) = comps.
Proof.
  intros (Hne & Hns & Hd). destruct comps as [|c r]; [reflexivity|].
  rewrite unix_components_cons, split_join by (discriminate || assumption).
  rewrite (filter_true nonempty) by exact Hne. f_equal.
  apply filter_true. eapply Forall_impl; [|exact Hd]. cbn. intros a ->. reflexivity.
Qed.

Lemma join_not_absolute comps : canon comps -> is_absolute_unix (join_with slash comps) = false.
Proof.
  intros (Hne & Hns & _). destruct comps as [|c r]; [reflexivity|].
  inversion Hne; subst. inversion Hns as [|? ? Hc _]; subst. destruct c as [|a c]; [discriminate|].
  apply nosep_cons in Hc as [Ha _]. destruct r; exact Ha.
Qed.

Fixpoint eat (ts : list (ascii -> bool)) (r : str) : option str :=
  match ts, r with
  | [], _ => Some r
  | t :: ts', c :: r' => if t c then eat ts' r' else None
  | _ :: _, [] => None
  end.

Lemma eat_length ts : forall r r', eat ts r = Some r' -> length r' <= length r.
Proof.
  induction ts as [|t ts IH]; intros r r'; cbn [eat]; [intros [= <-]; lia|].
  destruct r as [|c r]; [discriminate|]. destruct (t c); [|discriminate]. intros E. apply IH in E. cbn [length]. lia.
Qed.

Lemma eat_app ts x : forall r r', eat ts r = Some r' -> eat ts (r ++ x) = Some (r' ++ x).
Proof.
  induction ts as [|t ts IH]; intros r r'; cbn [eat]; [intros [= <-]; reflexivity|].
  destruct r as [|c r]; [discriminate|]. cbn [app]. destruct (t c); [apply IH|discriminate].
Qed.

(* The model's test of the bytes after a lead byte, as a function of the tests: all are made, then [X] checks the rest.
   [acc] starts as [true]; [true && x] reduces to [x], so the conjunction comes out as the model writes it. *)
Fixpoint accept (X : str -> bool) (ts : list (ascii -> bool)) (acc : bool) (r : str) : bool :=
  match ts with
  | [] => acc && X r
  | t :: ts' => match r with c :: r' => accept X ts' (acc && t c) r' | [] => false end
  end.

Lemma accept_eat X ts : forall acc r, accept X ts acc r = acc && match eat ts r with Some r' => X r' | None => false end.
Proof.
  induction ts as [|t ts IH]; intros acc r; cbn [accept eat]; [reflexivity|].
  destruct r as [|c r]; [symmetry; apply andb_false_r|]. rewrite IH. destruct acc, (t c); reflexivity.
Qed.

(* What the lossy conversion makes of the bytes after a lead byte: those that pass their tests are kept ([k] collects
   them), the first that fails gives U+FFFD and the conversion [X] resumes at it. *)
Fixpoint chew (X : str -> str) (ts : list (ascii -> bool)) (k : str -> str) (r : str) : str :=
  match ts with
  | [] => k (X r)
  | t :: ts' => match r with
                | c :: r' => if t c then chew X ts' (fun x => k (c :: x)) r' else fffd ++ X r
                | [] => fffd
                end
  end.

Lemma chew_eat X ts : forall k r r', eat ts r = Some r' -> X r' = r' -> chew X ts k r = k r.
Proof.
  induction ts as [|t ts IH]; intros k r r'; cbn [eat chew]; [intros [= <-] ->; reflexivity|].
  destruct r as [|c r]; [discriminate|]. destruct (t c); [|discriminate]. apply (IH (fun x => k (c :: x))).
Qed.

(* A character is a lead byte and the bytes that its value admits after it ([follow], consumed by [eat]).  The model
   tests byte values against unary numerals hundreds deep, and every proof step on a goal that shows them is slow to
   check.  So the case analysis is done here, with variables for the tests, and the model's functions meet it by
   conversion alone ([valid_step], [lossy_step]); only [follow_cont] looks at the numbers. *)
Section Shape.
  Variables (t1 t2 t3 t4 : bool) (p3 p4 : ascii -> bool).

  Definition tests : option (list (ascii -> bool)) :=
    if t1 then Some [] else if t2 then Some [cont] else if t3 then Some [p3; cont] else if t4 then Some [p4; cont; cont] else None.

  Lemma tests_none : t1 = false -> t2 = false -> t3 = false -> t4 = false -> tests = None.
  Proof. unfold tests. intros -> -> -> ->. reflexivity. Qed.

  Lemma tests_elim {A} (k : option (list (ascii -> bool)) -> A) :
    (if t1 then k (Some []) else if t2 then k (Some [cont]) else if t3 then k (Some [p3; cont])
     else if t4 then k (Some [p4; cont; cont]) else k None) = k tests.
  Proof. unfold tests. destruct t1, t2, t3, t4; reflexivity. Qed.
End Shape.

Definition follow (c0 : ascii) : option (list (ascii -> bool)) :=
  let n := b c0 in
  tests (Nat.leb n 127) (Nat.leb 194 n && Nat.leb n 223) (Nat.leb 224 n && Nat.leb n 239) (Nat.leb 240 n && Nat.leb n 244)
    (in_range (if Nat.eqb n 224 then 160 else 128) (if Nat.eqb n 237 then 159 else 191))
    (in_range (if Nat.eqb n 240 then 144 else 128) (if Nat.eqb n 244 then 143 else 191)).

Lemma valid_step f c0 r : utf8_valid_fuel (S f) (c0 :: r) =
  match follow c0 with
  | Some ts => match eat ts r with Some r' => utf8_valid_fuel f r' | None => false end
  | None => false
  end.
Proof.
  transitivity (match follow c0 with Some ts => accept (utf8_valid_fuel f) ts true r | None => false end).
  - exact (tests_elim _ _ _ _ _ _ (fun o => match o with Some ts => accept (utf8_valid_fuel f) ts true r | None => false end)).
  - destruct (follow c0); [apply accept_eat|reflexivity].
Qed.

Lemma lossy_step f c0 r : lossy_fuel (S f) (c0 :: r) =
  match follow c0 with Some ts => chew (lossy_fuel f) ts (cons c0) r | None => fffd ++ lossy_fuel f r end.
Proof.
  exact (tests_elim _ _ _ _ _ _ (fun o => match o with Some ts => chew (lossy_fuel f) ts (cons c0) r | None => fffd ++ lossy_fuel f r end)).
Qed.

Lemma follow_cont c : cont c = true -> follow c = None.
Proof.
  unfold cont. intros H. apply andb_true_iff in H as [H1 H2]. apply Nat.leb_le in H1, H2.
  apply tests_none; [apply Nat.leb_gt; lia|rewrite (proj2 (Nat.leb_gt _ _)) by lia; reflexivity ..].
Qed.

Lemma lossy_fuel_valid fuel : forall s, utf8_valid_fuel fuel s = true -> length s < fuel -> lossy_fuel fuel s = s.
Proof.
  induction fuel as [|fuel IH]; intros s Hv Hl; [lia|].
  destruct s as [|c0 r]; [reflexivity|]. rewrite valid_step in Hv. rewrite lossy_step. cbn [length] in Hl.
  destruct (follow c0) as [ts|]; [|discriminate]. destruct (eat ts r) as [r'|] eqn:E; [|discriminate].
  apply (chew_eat _ _ _ _ _ E). apply IH; [exact Hv|]. apply eat_length in E. lia.
Qed.
Theorem lossy_valid s : utf8_valid s = true -> lossy s = s.
Proof. intros H. apply lossy_fuel_valid; [exact H|lia]. Qed.

(* what the destination writes back normalises to the same target, for every text that the lossy
   conversion leaves alone (in particular every well-formed UTF-8 text) *)
Theorem normalize_unix_idem t : lossy t = t -> normalize_unix (denormalize Unix (normalize_unix t)) = normalize_unix t.
Proof.
  intros HL. unfold normalize_unix at 2.
  destruct (is_absolute_unix t) eqn:Ea.
  - cbn [denormalize]. rewrite HL. unfold normalize_unix. rewrite Ea. reflexivity.
  - destruct (forallb utf8_valid (unix_components t) && negb (existsb (contains backslash) (unix_components t))) eqn:Ec.
    + cbn [denormalize]. unfold normalize_unix.
      rewrite join_not_absolute by apply unix_components_canon.
      rewrite unix_components_join by apply unix_components_canon. rewrite Ea, Ec. reflexivity.
    + cbn [denormalize]. rewrite HL. unfold normalize_unix. rewrite Ea, Ec. reflexivity.
Qed.

(* relative link text reaches the destination with the same components; any other text verbatim *)
Theorem link_text_preserved t : lossy t = t -> same_path_text t (denormalize Unix (normalize_unix t)) = true.
Proof.
  intros HL. unfold normalize_unix, same_path_text.
  destruct (is_absolute_unix t) eqn:Ea; [cbn [denormalize]; rewrite HL, Ea; cbn [orb]; apply str_eqb_refl|].
  destruct (forallb utf8_valid (unix_components t) && negb (existsb (contains backslash) (unix_components t))) eqn:Ec.
  - cbn [denormalize]. rewrite join_not_absolute by apply unix_components_canon. cbn [orb].
    rewrite unix_components_join by apply unix_components_canon.
    destruct (list_eq_dec str_eq_dec (unix_components t) (unix_components t)); [reflexivity|congruence].
  - cbn [denormalize]. rewrite HL, Ea. cbn [orb].
    destruct (list_eq_dec str_eq_dec (unix_components t) (unix_components t)); [reflexivity|congruence].
Qed.
Theorem raw_text_verbatim t s : lossy t = t -> normalize_unix t = TRaw s -> denormalize Unix (normalize_unix t) = t.
Proof.
  intros HL. unfold normalize_unix. destruct (is_absolute_unix t); [intros _; cbn [denormalize]; exact HL|].
  destruct (_ && _); [discriminate|intros _; cbn [denormalize]; exact HL].
Qed.

(* F7: ill-formed text does NOT survive - the replacement character turns a raw text into a
   normalisable one, so the link looks different on every later run *)
Theorem link_text_roundtrip_refuted :
  exists t, normalize_unix (denormalize Unix (normalize_unix t)) <> normalize_unix t.
Proof. exists [ascii_of_nat 116; ascii_of_nat 255; ascii_of_nat 120]. vm_compute. discriminate. Qed.
