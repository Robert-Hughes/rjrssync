(* C03, end to end and for ALL runs: whenever an existing destination entry is no longer what it was - at the
   end of a run (successful or failed) or in any state a kill can leave behind - the consent of its category
   was configured or given: entry deletion for an entry that is gone or replaced, the newer / older / same-time
   setting of an existing file whose bytes or time changed.  Composition of C07's "only planned changes"
   (Proofs/TouchedProofs.v) with the confirmation theorems (Proofs/ConfirmProofs.v) and the plan facts. *)
From RJ Require Import Base.Prelude Base.OrderedPlan Model.Settings Model.Core Model.Fs Model.Sync
  Spec.PlanSpec Spec.Mirror Proofs.PlanCProofs Proofs.FsProofs Proofs.PathLemmas Proofs.ExecProofs Proofs.DryProofs
  Proofs.ConfirmProofs Proofs.SyncProofs Proofs.MirrorProofs Proofs.ConfineProofs Proofs.QuietProofs Proofs.BlockProofs
  Proofs.CrashProofs Proofs.CrashMain Proofs.TouchedProofs Proofs.ConfineAll.

Lemma resolve_root_suffix cur ans b ans' shown : resolve_root cur ans = (b, ans', shown) -> has_act ans' = true -> has_act ans = true.
Proof.
  unfold resolve_root. destruct cur; try (intros H; inversion H; subst; auto; fail).
  destruct ans as [|[a|a|] r]; intros H Ha; inversion H; subst; auto using has_act_cons.
Qed.

Lemma root_gate_suffix diff root sroot droot ans ans1 np1 :
  root_gate diff root sroot droot ans = inl (ans1, np1) -> has_act ans1 = true -> has_act ans = true.
Proof.
  unfold root_gate. destruct droot as [d|]; [destruct (needs_delete diff sroot d)|];
    [destruct (resolve_root root ans) as [[[] a'] sh] eqn:Er; try discriminate| |]; intros H; inversion H; subst; auto.
  eapply resolve_root_suffix; eauto.
Qed.

Definition entry_consent (cfg : config) (ans : list answer) : Prop :=
  b_entry (cf_b cfg) = BAct \/ (b_entry (cf_b cfg) = BPrompt /\ has_act ans = true).
Definition overwrite_consent (cfg : config) (ans : list answer) : Prop :=
  exists r, r <> NotOnDest /\ (get_beh (cf_b cfg) r = BAct \/ (get_beh (cf_b cfg) r = BPrompt /\ has_act ans = true)).

Section ConsentAll.
Variable now_z : N -> Z.
Variable incl : path -> bool.
Variable normalize : str -> target.
Variable chunker : str -> list str.
Hypothesis chunker_ok : forall d, chunker d <> [] /\ concat (chunker d) = d.

Notation entry_of := (entry_of now_z normalize).
Notation valid_listing := (valid_listing now_z incl normalize).
Notation side_listing := (side_listing now_z normalize).
Notation takes_part := (takes_part incl).
Notation sync_one := (sync_one now_z normalize chunker).
Notation sync_plan := (sync_plan now_z normalize chunker).

(* which entry of the executed lists a command of the step list comes from: the copy entry of a creating
   command, or the deleted entry *)
Lemma exec_steps_creates S a c : In (DestCmd c) (exec_steps chunker S a) ->
  match c with
  | CCreateFolder q => exists r, In (q, (EFolder, r)) (a_copy a)
  | CCreateSymlink q k t => exists r, In (q, (ESymlink k t, r)) (a_copy a)
  | CCreateOrUpdateFile q _ _ _ => exists mt sz r, In (q, (EFile mt sz, r)) (a_copy a)
  | _ => exists e, In e (a_delete a) /\ c = delete_cmd e
  end.
Proof.
  unfold Sync.exec_steps. intros H. apply in_app_or in H as [H|H].
  - apply in_map_iff in H as (e & He & Hin). inversion He; subst. destruct e as [q [[mt sz| |k t] r]]; cbn [delete_cmd]; eauto.
  - apply in_flat_map in H as ([p [e r]] & Hin & Hs).
    destruct (copy_steps_belong chunker S _ _ Hin _ Hs) as [(q & Hq)|(p' & e' & r' & c' & Hin' & Hc' & Hce)]; [discriminate|].
    inversion Hc'; subst c'. destruct Hce; eauto.
Qed.

Theorem consent_end_to_end cfg S D ans bits ls ld :
  valid_listing S ls -> valid_listing (d_fs D) ld -> wf_fs (d_fs D) -> d_open D = None ->
  let steps := snd (sync_plan cfg S D ans bits ls ld) in
  forall s, Touched (cf_fl cfg) S (d_fs D) (cmd_of_plan steps) (file_of_plan steps) s ->
  forall p n, fget (d_fs D) p = Some n -> fget (d_fs s) p <> Some n ->
    entry_consent cfg ans \/
    ((exists m d m' d', n = NFile m d /\ fget (d_fs s) p = Some (NFile m' d')) /\ overwrite_consent cfg ans).
Proof.
  intros HvS HvD HwD Hopen steps s HT p n HDp Hch.
  pose proof (side_lists now_z incl normalize S ls HvS) as HS. pose proof (side_lists now_z incl normalize (d_fs D) ld HvD) as HD.
  (* the plan does not depend on the faults: it is read off the run that meets none *)
  pose proof (sync_one_plan now_z normalize chunker cfg S D ans bits ls ld no_faults) as Hcase. unfold steps in HT. clear steps.
  set (droot := option_map entry_of (fget (d_fs D) [])) in *.
  (* a step list that is at most CreateRootAncestors names no path *)
  assert (Hquiet : forall l, (forall c, In (DestCmd c) l -> c = CCreateRootAncestors) ->
                     Touched (cf_fl cfg) S (d_fs D) (cmd_of_plan l) (file_of_plan l) s -> False).
  { intros l Hin HT0.
    destruct (HT0 p) as [H|[(_ & c & Hc & _ & Hp)|[(_ & Hc)|[(k & t & _ & Hc)|[(k & d & mt & _ & d0 & smt & mo & Hc)|(mt & fu & m & _ & _ & d0 & smt & mo & Hc)]]]]];
      try congruence; try (apply Hin in Hc; discriminate Hc). apply Hin in Hc. subst c. discriminate Hp. }
  assert (Hstart : forall c, In (DestCmd c) (start_steps (cf_dry cfg) droot) -> c = CCreateRootAncestors).
  { destruct (start_steps_shape (cf_dry cfg) droot) as [-> | ->]; [intros c []|intros c [H|[]]; inversion H; reflexivity]. }
  revert HT. destruct Hcase as [Hs|sn skip np Hs Hg|sn ans1 np1 steps r Hs Hg Hp]; cbn [snd]; intros HT;
    try (exfalso; apply (Hquiet []); [intros c []|exact HT]).
  destruct Hp as [Ha|acts Ha Hc|acts acts' sk b2 a2 np Ha Hc Hd|acts acts' sk b2 a2 np Ha Hc Hd];
    try (exfalso; rewrite app_nil_r in HT; exact (Hquiet _ Hstart HT)).
  rewrite (arrivals_spec now_z incl normalize _ _ S (d_fs D) sn bits ls ld HvS HvD Hs) in Ha. inversion Ha; subst acts. clear Ha.
  set (acts := plan_spec _ _ _ _) in *.
  (* consent for what stayed in the lists *)
  assert (Hdel : forall x, In x (a_delete acts') -> entry_consent cfg ans).
  { intros x Hx. destruct (confirmed_delete_consent _ _ _ _ _ _ _ _ Hc x Hx) as [H|[H1 H2]];
      [left; exact H|right; split; [exact H1|exact (root_gate_suffix _ _ _ _ _ _ _ Hg H2)]]. }
  (* a copy entry at p stayed: the deletion of the old entry stayed too, or both are files and it is an update in place *)
  assert (Hcopy : forall e r, In (p, (e, r)) (a_copy acts') ->
            entry_consent cfg ans \/ (exists mt sz m d, e = EFile mt sz /\ n = NFile m d /\ overwrite_consent cfg ans)).
  { intros e r Hin.
    destruct (copy_onto_existing now_z incl normalize _ _ S (d_fs D) _ _ HS HD HwD p e r n
                (confirmed_copy_in _ _ _ _ _ _ _ _ Hc _ Hin) HDp) as [Hdl|[Hnd Hnc]].
    - left. exact (Hdel _ (confirmed_in_the_way _ _ _ _ _ _ _ _ Hc p _ _ Hdl Hin (is_prefix_refl p))).
    - right. destruct e as [ms szs| |ks ts]; try discriminate Hnc.
      destruct n as [m d| |t k]; cbn [Fs.entry_of needs_copy] in Hnc; try discriminate Hnc.
      exists ms, szs, m, d. split; [reflexivity|]. split; [reflexivity|]. exists r.
      assert (Hr : r <> NotOnDest).
      { destruct (Z.compare ms (stamp_z now_z m)); [destruct (beh_eqb _ _); [discriminate|]| |]; inversion Hnc; discriminate. }
      split; [exact Hr|].
      destruct (confirmed_copy_consent _ _ _ _ _ _ _ _ Hc p _ r Hin Hr) as [H|[H1 H2]];
        [left; exact H|right; split; [exact H1|exact (root_gate_suffix _ _ _ _ _ _ _ Hg H2)]]. }
  assert (Hcreate : forall c, cmd_of_plan (start_steps (cf_dry cfg) droot ++ exec_steps chunker S acts') c -> c <> CCreateRootAncestors ->
            In (DestCmd c) (exec_steps chunker S acts')).
  { intros c Hin Hne. apply in_app_or in Hin as [Hin|Hin]; [elim Hne; exact (Hstart c Hin)|exact Hin]. }
  (* the cases of Touched *)
  destruct (HT p) as [H|[(Hn & c & Hc0 & Hdc & Hp)|[(Hn & Hc0)|[(k & t & Hn & Hc0)|[(k & d & mt & Hn & d0 & smt & mo & Hc0)|(mt & fu & m & Hn & _ & d0 & smt & mo & Hc0)]]]]].
  - congruence.
  - (* gone: a deletion of p was executed, so it stayed in the list *)
    left. apply Hcreate in Hc0; [|intros ->; exact Hdc]. apply exec_steps_creates in Hc0.
    destruct c; try destruct Hdc; destruct Hc0 as (e & He & _); exact (Hdel e He).
  - (* now a folder: it was something else, which had to be deleted first *)
    apply Hcreate, exec_steps_creates in Hc0 as (r0 & Hin); [|discriminate].
    destruct (Hcopy _ _ Hin) as [H|(? & ? & ? & ? & ? & _)]; [left; exact H|discriminate].
  - (* now a link written by this run *)
    apply Hcreate, exec_steps_creates in Hc0 as (r0 & Hin); [|discriminate].
    destruct (Hcopy _ _ Hin) as [H|(? & ? & ? & ? & ? & _)]; [left; exact H|discriminate].
  - (* a file being written *)
    apply Hcreate, exec_steps_creates in Hc0 as (mt0 & sz0 & r0 & Hin); [|discriminate].
    destruct (Hcopy _ _ Hin) as [H|(? & ? & m0 & dd & _ & -> & Ho)]; [left; exact H|right; split; [eauto 8|exact Ho]].
  - (* a file written completely *)
    apply Hcreate, exec_steps_creates in Hc0 as (mt0 & sz0 & r0 & Hin); [|discriminate].
    destruct (Hcopy _ _ Hin) as [H|(? & ? & m0 & dd & _ & -> & Ho)]; [left; exact H|right; split; [eauto 8|exact Ho]].
Qed.

End ConsentAll.
