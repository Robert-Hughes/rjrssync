(* Shutdown protocol model (C09): the case analysis of a step, termination, soundness of the executable runs. *)
From RJ Require Import Base.Prelude Model.Shutdown.

Local Open Scope nat_scope.

Ltac proj := cbn [bo sd dd cs rs cd rd pc bpre bfiles bexp boff berr bexit slife spend sfiles gplan skill
                  dlife dpend dplan dkill q rxa txa with_bo goto bfail bend push setq drop_rx drop_tx s_exit d_exit
                  running negb andb final] in *.

(* Case analysis of a goal [next c a s = _ -> _].  The state is opened into its fields; then, per process and per
   boss pc, exactly what the step function branches on is split.  One goal per transition or blocked wait, each
   with [Some _ = _ -> _] or [None = _ -> _] in front. *)
Ltac cases a s :=
  destruct s as [[p bp bf be bof ber bex] [sl sp sf gp sk] [dl dp dpl dk] [qcs rcs tcs] [qrs rrs trs] [qcd rcd tcd] [qrd rrd trd]];
  let send rx := (destruct (can_send _ _ _); [destruct rx|]) in
  unfold next; destruct (final _) eqn:Hfin; [|destruct a];
  [ | unfold boss_step, send_dest, after_file; proj;
      destruct p as [| | | | ? ?|fin| | | | | | |]; proj;
      [ (* BPre *) destruct bp; [|send rcd]
      | (* BPrePoll *) destruct (poll_err _)
      | (* BNext *) destruct bf; [|send rcs]
      | (* BRecv *) destruct qrs as [|[len lst|] ?]; [destruct trs | destruct (_ <? _)%N; [destruct (_ =? _)%N|] | ]
      | (* BFwd *) send rcd
      | (* BPoll *) destruct (poll_err _); [|destruct fin; [destruct (_ =? _)%N|]]
      | (* BSendDone *) send rcd
      | (* BWait *) destruct qrd as [|[] ?]; [destruct trd | | ]
      | (* BShutS *) send rcs; [destruct (fixed _) eqn:Hfix ..|]
      | (* BJoinS *) destruct sl
      | (* BShutD *) send rcd; [destruct (fixed _) eqn:Hfix ..|]
      | (* BJoinD *) destruct dl
      | (* BEnd *) ]
    | unfold src_step; proj;
      destruct sl; [destruct sp; [destruct qcs as [|[] ?]; [destruct tcs | destruct sf; [|destruct (plan_hd _)] | ] | send rrs] | ..]
    | unfold dest_step; proj;
      destruct dl; [destruct dp; [destruct qcd as [|[] ?]; [destruct tcd | destruct (plan_hd _) | | ] | send rrd] | ..]
    | proj; destruct sl, sk
    | proj; destruct dl, dk ]; proj.
(* ... of [next c a s = Some s' -> _]: one goal per transition, [s'] replaced by the new state *)
Ltac steps a s := cases a s; try discriminate; intros [= <-].

Lemma qsum_app {A} (w : A -> N) (l1 l2 : list A) : (qsum w (l1 ++ l2) = qsum w l1 + qsum w l2)%N.
Proof. induction l1 as [|x l IH]; cbn [qsum app]; [lia | rewrite IH; lia]. Qed.

Lemma chunks_len hd tl : length (chunks_from hd tl) = S (length tl).
Proof. revert hd; induction tl as [|x r IH]; intros hd; cbn [chunks_from length]; [reflexivity | now rewrite IH]. Qed.

Lemma reach_invariant c x (I : st -> Prop) :
  I (init x) -> (forall a s s', I s -> next c a s = Some s' -> I s') -> forall s, reach c x s -> I s.
Proof. intros H0 HS s H. induction H as [|s s' _ IH [a Ha]]; eauto. Qed.

(* potentials that no step makes larger stay below their initial values *)
Lemma reach_nonincreasing c x (f g : st -> N) :
  (forall a s s', next c a s = Some s' -> (f s' <= f s)%N /\ (g s' <= g s)%N) ->
  forall s, reach c x s -> (f s <= f (init x))%N /\ (g s <= g (init x))%N.
Proof. intros H. apply reach_invariant; [split; lia|]. intros a t t' [] E. destruct (H _ _ _ E). split; lia. Qed.

Lemma step_decreases c a s s' : next c a s = Some s' -> mu s' < mu s.
Proof.
  steps a s; unfold mu, fchunks; proj; cbn [pcw lw fsw]; unfold fw; rewrite ?app_length, ?chunks_len;
  cbn [length fhd ftl]; clear; lia.     (* clear first: lia is slow with the opened state in the context *)
Qed.

Theorem terminates c s : Acc (fun a b => step c b a) s.
Proof. apply (well_founded_lt_compat _ mu). intros a b [x H]. eapply step_decreases; exact H. Qed.

Lemma run_sched_reach c x l : forall s, reach c x s -> reach c x (run_sched c s l).
Proof.
  induction l as [|a r IH]; intros s Hs; cbn [run_sched]; [exact Hs|].
  destruct (next c a s) as [s'|] eqn:E; [|now apply IH].
  apply IH. eapply reach_step; [exact Hs | exists a; exact E].
Qed.

Lemma first_enabled_step c s ord s' : first_enabled c s ord = Some s' -> step c s s'.
Proof.
  induction ord as [|a r IH]; cbn [first_enabled]; [discriminate|].
  destruct (next c a s) as [t|] eqn:E; [|exact IH].
  intros H; injection H as <-. now exists a.
Qed.

Lemma first_enabled_none c s ord : first_enabled c s ord = None -> forall a, In a ord -> next c a s = None.
Proof.
  induction ord as [|b r IH]; cbn [first_enabled]; [intros _ a []|].
  destruct (next c b s) as [t|] eqn:E; [discriminate|].
  intros H a [<-|Hin]; [exact E | now apply IH].
Qed.

Lemma run_prio_reach c x ord n : forall s, reach c x s -> reach c x (run_prio c n ord s).
Proof.
  induction n as [|n IH]; intros s Hs; cbn [run_prio]; [exact Hs|].
  destruct (first_enabled c s ord) as [s'|] eqn:E; [|exact Hs].
  apply IH. eapply reach_step; [exact Hs | eapply first_enabled_step; exact E].
Qed.

Lemma run_prio_quiescent c ord n : forall s, mu s < n ->
  forall a, In a ord -> next c a (run_prio c n ord s) = None.
Proof.
  induction n as [|n IH]; intros s Hlt; [lia|]. cbn [run_prio].
  destruct (first_enabled c s ord) as [s'|] eqn:E.
  - apply IH. destruct (first_enabled_step _ _ _ _ E) as [a Ha]. apply step_decreases in Ha. lia.
  - now apply first_enabled_none.
Qed.

Theorem run_sound c x ord : reach c x (run_to_end c ord (init x)) /\
  forall a, In a ord -> next c a (run_to_end c ord (init x)) = None.
Proof.
  split; [apply run_prio_reach; constructor | apply run_prio_quiescent; lia].
Qed.
