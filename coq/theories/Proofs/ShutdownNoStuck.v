(* C09: no reachable non-final state is stuck, of the repaired protocol or below capacity; exit status; the
   refutation witness for the pinned tree. *)
From RJ Require Import Base.Prelude Model.Shutdown Proofs.ShutdownProofs Proofs.ShutdownInv.

Local Open Scope nat_scope.

Lemma can_send_le {A} c (w : A -> N) ch : (qsum w (q ch) <= cap c)%N -> can_send c w ch = true.
Proof. unfold can_send. intros H. apply N.leb_le in H. now rewrite H. Qed.

Lemma can_send_blocked {A} c (w : A -> N) ch : can_send c w ch = false ->
  q ch <> [] /\ (fixed c = true -> rxa ch = true).
Proof.
  unfold can_send. intros H. apply orb_false_iff in H as [H1 H2]. split.
  - intros E. rewrite E in H1. apply N.leb_gt in H1. cbn [qsum] in H1. lia.
  - intros F. rewrite F in H2. now destruct (rxa ch).
Qed.

Lemma pot_step c a s s' : next c a s = Some s' ->
  (cspot c s' <= cspot c s)%N /\ (rdpot c s' <= rdpot c s)%N.
Proof.
  assert (Z1 : (wdr c DErr <= zr c)%N) by (unfold zr; lia).
  assert (Z2 : (wdr c DEcho <= zr c)%N) by (unfold zr; lia).
  assert (Z3 : (wsc c SGet <= zs c)%N) by (unfold zs; lia).
  assert (Z4 : (wsc c SShut <= zs c)%N) by (unfold zs; lia).
  steps a s; unfold cspot, rdpot, toks, fchunks; proj; cbn [pend spd hand nchunks qsum length];
  rewrite ?qsum_app, ?app_length, ?chunks_len; cbn [qsum length fhd ftl];
  clear - Z1 Z2 Z3 Z4; split; try apply N.le_refl; lia.
Qed.

(* what an action that cannot move is waiting for *)
Lemma blocked c a s : next c a s = None -> final s = true \/
  match a with
  | ABoss => can_send c (wdc c) (cd s) = false \/ can_send c (wsc c) (cs s) = false \/
             match pc (bo s) with
             | BRecv => q (rs s) = [] /\ txa (rs s) = true
             | BWait => q (rd s) = [] /\ txa (rd s) = true
             | BJoinS => slife (sd s) = Run
             | BJoinD => dlife (dd s) = Run
             | _ => False
             end
  | ASrc => running (slife (sd s)) = false \/ can_send c (wsr c) (rs s) = false \/
            spend (sd s) = [] /\ q (cs s) = []
  | ADest => running (dlife (dd s)) = false \/ can_send c (wdr c) (rd s) = false \/
             dpend (dd s) = [] /\ q (cd s) = []
  | _ => True
  end.
Proof. cases a s; try discriminate; intros _; auto. Qed.

(* Who waits for whom, without arithmetic.  The senders into the control channels (cs, rd) never wait; a sender
   into a data channel (rs, cd) never waits either, or the repair is in: then it waits only on a non-empty
   queue whose receiver lives.  So a boss that waits finds the doer it waits for able to move. *)
Lemma no_stuck_core c s : Inv c s -> final s = false ->
  can_send c (wsc c) (cs s) = true -> can_send c (wdr c) (rd s) = true ->
  fixed c = true \/ can_send c (wsr c) (rs s) = true /\ can_send c (wdc c) (cd s) = true ->
  exists a s', next c a s = Some s'.
Proof.
  intros HI Hfin Hcs Hrd Hf.
  destruct (next c ABoss s) eqn:EB; [eauto|]. destruct (next c ASrc s) eqn:ES; [eauto|].
  destruct (next c ADest s) eqn:ED; [eauto|]. exfalso.
  apply blocked in EB as [?|B], ES as [?|S], ED as [?|D]; try congruence.
  destruct HI as [Rcs Trs Rcd Trd _ Mid Wait Js Jsr Jd Jdr _ _].
  assert (Wrs : can_send c (wsr c) (rs s) = false -> q (rs s) <> [] /\ rxa (rs s) = true /\ fixed c = true).
  { intros E. destruct Hf as [F|[? ?]]; [|congruence]. destruct (can_send_blocked _ _ _ E). auto. }
  assert (Wcd : can_send c (wdc c) (cd s) = false -> q (cd s) <> [] /\ rxa (cd s) = true).
  { intros E. destruct Hf as [F|[? ?]]; [|congruence]. destruct (can_send_blocked _ _ _ E). auto. }
  assert (D' : running (dlife (dd s)) = true -> dpend (dd s) = [] /\ q (cd s) = []).
  { destruct D as [?|[?|?]]; [congruence.. | auto]. }
  assert (S' : running (slife (sd s)) = true ->
               can_send c (wsr c) (rs s) = false \/ spend (sd s) = [] /\ q (cs s) = []).
  { destruct S as [?|?]; [congruence | auto]. }
  clear Hf S D. destruct B as [B|[B|B]]; [| congruence |].
  - (* waiting for capacity in cd: the destination doer lives and has a command to take *)
    destruct (Wcd B) as [N R]. apply N, D'. congruence.
  - destruct (pc (bo s)); try contradiction; simp.
    + (* BRecv: rs is empty, so the source is not waiting for capacity; it owes a reply or has a Get to take *)
      destruct B as [Q T]. destruct S' as [E|[E1 E2]]; [congruence | now destruct (Wrs E) | ].
      rewrite Q, E1, E2 in Mid. simp. destruct Mid as [|[|[|]]]; congruence.
    + (* BWait *)
      destruct B as [Q T]. destruct D' as [E1 E2]; [congruence|].
      rewrite Q, E1, E2 in Wait. simp. destruct Wait as [|[|[|]]]; congruence.
    + (* BJoinS: the Shutdown is queued; with the repair the boss's receiver is gone, which wakes the source *)
      rewrite B in *; proj. destruct S' as [E|[E1 E2]]; [reflexivity | |].
      * destruct (Wrs E) as (_ & R & F). destruct Jsr as [|[|]]; congruence.
      * rewrite E2 in Js. simp. destruct Js as [|[|]]; congruence.
    + (* BJoinD *)
      rewrite B in *; proj. destruct D' as [E1 E2]; [reflexivity|].
      rewrite E2 in Jd. simp. destruct Jd as [|[|]]; congruence.
Qed.

(* ctl_ok keeps the control channels below the capacity for ever *)
Lemma no_stuck_reach c x s : ctl_ok c x -> reach c x s ->
  fixed c = true \/ can_send c (wsr c) (rs s) = true /\ can_send c (wdc c) (cd s) = true ->
  final s = true \/ exists s', step c s s'.
Proof.
  intros [Hc Hr] Hs Hf. destruct (final s) eqn:Hfin; [now left|right].
  destruct (reach_nonincreasing c x _ _ (pot_step c) s Hs) as [P1 P2]. unfold cspot, rdpot in *.
  destruct (no_stuck_core c s (reach_inv _ _ _ Hs) Hfin) as (a & s' & Ha);
    [apply can_send_le; lia.. | exact Hf | exists s'; now exists a].
Qed.

Theorem no_stuck c x s : fixed c = true -> ctl_ok c x -> reach c x s ->
  final s = true \/ exists s', step c s s'.
Proof. intros Hf Hc Hs. apply (no_stuck_reach c x); auto. Qed.

Lemma dpot_step c a s s' : next c a s = Some s' ->
  (rspot c s' <= rspot c s)%N /\ (cdpot c s' <= cdpot c s)%N.
Proof.
  steps a s; unfold rspot, cdpot; proj; cbn [handw ctlw filesw filesdw qsum length dw spd]; unfold filew;
  rewrite ?qsum_app, ?app_length; cbn [qsum length dw]; clear; split; try apply N.le_refl; lia.
Qed.

(* below capacity nothing ever waits for capacity, with or without the repair *)
Theorem holds_below_capacity c x s : ctl_ok c x -> data_ok c x -> reach c x s ->
  final s = true \/ exists s', step c s s'.
Proof.
  intros Hc [Hrs Hcd] Hs. apply (no_stuck_reach c x); auto.
  destruct (reach_nonincreasing c x _ _ (dpot_step c) s Hs) as [P1 P2]. unfold rspot, cdpot in *.
  right. split; apply can_send_le; lia.
Qed.

Lemma final_pc s : final s = true -> pc (bo s) = BEnd.
Proof. unfold final. destruct (pc (bo s)); try discriminate; reflexivity. Qed.

(* the boss reported a failed sync, or a doer thread died: the exit status is not zero *)
Theorem exit_nonzero c x s : reach c x s -> final s = true ->
  berr (bo s) = true \/ is_dead (slife (sd s)) = true \/ is_dead (dlife (dd s)) = true ->
  bexit (bo s) <> 0%N.
Proof.
  intros Hs Hf Hfault. destruct (i_end _ _ (reach_inv _ _ _ Hs)) as [E|E]; [congruence|]. rewrite E.
  destruct (is_dead (slife (sd s))), (is_dead (dlife (dd s))), (berr (bo s)); try discriminate.
  now destruct Hfault as [|[|]].
Qed.

Theorem clean_exit_zero c x s : reach c x s -> final s = true ->
  berr (bo s) = false -> is_dead (slife (sd s)) = false -> is_dead (dlife (dd s)) = false ->
  bexit (bo s) = 0%N.
Proof.
  intros Hs Hf Hb H1 H2. destruct (i_end _ _ (reach_inv _ _ _ Hs)) as [E|E]; [congruence|].
  now rewrite E, Hb, H1, H2.
Qed.

(* The pinned tree (fixed = false): a destination error while the source's responses are above the
   capacity leaves the boss joining a doer that waits for capacity for ever. *)
Definition w_cfg (f : bool) : config :=
  mkCfg f 100%N (fun _ => 1%N) (fun r => match r with SChunk n _ => (n + 13)%N | SErr => 20%N end)
        (fun m => match m with DData n => (n + 50)%N | _ => 10%N end) (fun _ => 1%N).
Definition w_sc : scenario :=
  mkSc [0%N] [mkFile 600 100 [100; 100; 100; 100; 100]%N] [] [false; true] false false.
Definition w_order : list action := [ASrc; ABoss; ADest].

Theorem refuted_unfixed : exists c x s, fixed c = false /\ ctl_ok c x /\ reach c x s /\ stuck c s = true.
Proof.
  exists (w_cfg false), w_sc, (run_to_end (w_cfg false) w_order (init w_sc)).
  split; [reflexivity|]. split; [split; apply N.leb_le; vm_compute; reflexivity|].
  split; [apply run_prio_reach; constructor | vm_compute; reflexivity].
Qed.

(* the same scenario and schedule on the repaired tree: exit status 12 *)
Example repaired_witness :
  let s := run_to_end (w_cfg true) w_order (init w_sc) in
  final s = true /\ bexit (bo s) = 12%N /\ slife (sd s) = ExitErr.
Proof. vm_compute. repeat split. Qed.

Lemma stuck_sound c s : stuck c s = true -> final s = false /\ forall s', ~ step c s s'.
Proof.
  unfold stuck. intros H. apply andb_true_iff in H as [H1 H2]. split; [now destruct (final s)|].
  intros s' [a Ha]. rewrite forallb_forall in H2.
  assert (In a all_actions) by (destruct a; cbn; auto 10).
  specialize (H2 a H). rewrite Ha in H2. discriminate.
Qed.
