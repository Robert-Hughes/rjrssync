(* Remote session model: structural invariants of every reachable state (whatever the faults).  A main thread only
   moves down the order of its program counters (bpcw, dpcw of the model); where it stands determines which channel
   ends it still holds and what it has handed over and taken so far. *)
From RJ Require Import Base.Prelude Model.RemoteSession Proofs.RemoteSessionBase Proofs.RemoteSessionFlow.

Local Open Scope nat_scope.

Fixpoint cmd_ids (l : list msg) : list N :=
  match l with [] => [] | MCmd id _ :: t => id :: cmd_ids t | _ :: t => cmd_ids t end.
Definition is_rsp (m : msg) : bool := match m with MResp _ | MErr _ => true | _ => false end.
Definition is_d2b (m : msg) : bool := match m with MResp _ | MErr _ | MFinal => true | _ => false end.

Lemma cmd_ids_app l1 l2 : cmd_ids (l1 ++ l2) = cmd_ids l1 ++ cmd_ids l2.
Proof. induction l1 as [|m t IH]; [reflexivity|]. destruct m; cbn [cmd_ids app]; try exact IH. now rewrite IH. Qed.

Lemma in_snoc {A} (x y : A) l : In x (l ++ [y]) -> In x l \/ x = y.
Proof. intros H. apply in_app_or in H as [H|[H|[]]]; auto. Qed.

(* x occurs in l at most once, and then as the last element *)
Definition only_last {A} (x : A) (l : list A) : Prop := forall pre post, l = pre ++ x :: post -> post = [].

Lemma only_last_snoc {A} (x y : A) l : ~ In x l -> only_last x (l ++ [y]).
Proof.
  intros N pre post E. destruct post as [|p post] using rev_ind; [reflexivity|]. exfalso.
  rewrite app_comm_cons, app_assoc in E. apply app_inj_tail in E as [E _]. apply N. rewrite E.
  apply in_or_app. right. left. reflexivity.
Qed.

(* a history hs that can only end with x, of which hg has been taken, qi is queued and r is still under way:
   once x has been taken nothing is left *)
Lemma last_taken_all {A} (x : A) hs hg qi r :
  hs = hg ++ qi ++ r -> only_last x hs -> In x hg -> qi = [] /\ r = [].
Proof.
  intros E L Hin. apply in_split in Hin as (l1 & l2 & ->). rewrite <- app_assoc in E. cbn [app] in E.
  apply L in E. apply app_eq_nil in E as [_ E]. now apply app_eq_nil in E.
Qed.

(* bpcw: BApp 15, BShut 14, BFinal 7, BDropS 6, BJoinS 5, BDropR 4, BJoinR 3, BClose 2,
   BWait 1, BEnd 0 - so "6 <= bpcw" reads "has not dropped its sender yet", "14 <= bpcw" "has not tried to hand over
   the Shutdown yet", "7 <= bpcw" "has not taken its final message yet". *)
Record BossInv (s : st) : Prop := {
  b_txa : txa (outc (be s)) = (6 <=? bpcw (pc (bm s)));
  b_rxa : rxa (inc (be s)) = (4 <=? bpcw (pc (bm s)));
  b_sock : bsock (ev s) = (3 <=? bpcw (pc (bm s)));
  b_msg : Forall (fun m => is_b2d m = true) (hsent (be s));
  b_noshut : (14 <=? bpcw (pc (bm s))) = true -> ~ In MShut (hsent (be s));
  b_shut : (14 <=? bpcw (pc (bm s))) = false -> In MShut (hsent (be s)) \/ snd_t (be s) = SErr;
  b_shut_last : only_last MShut (hsent (be s));
  b_nofin : (7 <=? bpcw (pc (bm s))) = true -> bfin (bm s) = false;
  b_fin : bfin (bm s) = true -> exists zs, hgot (be s) = zs ++ [MFinal] }.

Lemma reach_boss_inv c x s : reach c x s -> BossInv s.
Proof.
  apply reach_next_ind.
  - constructor; unfold init; projs; cbn [ch0 txa rxa bpcw Nat.leb]; auto; try discriminate.
    intros [|? ?] ? E; discriminate E.
  - intros a s0 s' R I H. destruct (reach_finv _ _ _ R) as [[_ Rx Dn _] _].
    next_cases H.
    + (* computing the ranks settles every goal but those about the message handed over or taken *)
      destruct I as [Tx Rxa Sk Ms N1 Sh L Nf Fi].
      destruct M; rewrite P in *; cbn [bpcw Nat.leb] in *; constructor; cbn [ep_do]; projs; rewrite ?P; cbn [bpcw Nat.leb];
        auto; try discriminate.
      * apply Forall_app. split; [exact Ms | repeat constructor].
      * intros _ Z. apply in_snoc in Z as [Z|Z]; [now apply N1 | discriminate Z].
      * apply only_last_snoc. now apply N1.
      * intros Z. rewrite Nf in Z; [discriminate Z | reflexivity].
      * intros Z. rewrite Nf in Z; [discriminate Z | reflexivity].
      * apply Forall_app. split; [exact Ms | repeat constructor].
      * intros _. left. apply in_or_app. right. now left.
      * apply only_last_snoc. now apply N1.
      * (* the Shutdown could not be handed over: the sending thread has ended, and not Ok, since the boss still
           holds its end of the channel *)
        intros _. right. rewrite H in Rx. destruct (snd_t (be s0)); try discriminate Rx; [|reflexivity].
        destruct (Dn eq_refl) as [_ Z]. congruence.
      * intros Z. exists (hgot (be s0)). destruct m; try discriminate Z. reflexivity.
    + destruct I. constructor; projs; assumption.
    + destruct I. constructor; projs; assumption.
    + destruct I as [Tx Rxa Sk Ms N1 Sh L Nf Fi]. destruct E as [m t T Q | T Q X | m T B | m T B S]; constructor; projs; auto.
      all: intros Z; destruct (Sh Z) as [Y|Y]; [now left | rewrite T in Y; discriminate Y].
    + destruct E; destruct I; constructor; projs; assumption.
    + destruct I. constructor; projs; assumption.
    + destruct I. constructor; projs; assumption.
    + destruct (env_step_frame _ _ _ E) as (K & _). destruct I. constructor; projs; rewrite ?K; assumption.
Qed.

Lemma took_head {A} (m : A) hg ql t : ql = m :: t -> (hg ++ [m]) ++ tl ql = hg ++ ql.
Proof. intros ->. cbn [tl]. now rewrite <- app_assoc. Qed.

(* dpcw: DLoop 10, DDropS 9, DJoinS 8, DDropR 7, DJoinR 6, DFinal 5, DExit 0: "1 <= dpcw" reads "has not written its
   final message nor exited", "1 <= dpcw <= 9" "has left the message loop". *)
Record DoerInv (s : st) : Prop := {
  d_txa : (1 <=? dpcw (dp (dm s))) = true -> txa (outc (de s)) = (9 <=? dpcw (dp (dm s)));
  d_rxa : (1 <=? dpcw (dp (dm s))) = true -> rxa (inc (de s)) = (7 <=? dpcw (dp (dm s)));
  d_exec : dexec (dm s) = cmd_ids (hgot (de s));
  d_pend : Forall (fun m => is_rsp m = true) (dpend (dm s));
  d_msg : Forall (fun m => is_d2b m = true) (hsent (de s));
  d_nofin : (1 <=? dpcw (dp (dm s))) = true -> ~ In MFinal (hsent (de s));
  d_fin_last : only_last MFinal (hsent (de s));
  d_noshut : (10 <=? dpcw (dp (dm s))) = true -> ~ In MShut (hgot (de s));
  d_shut : In MShut (hgot (de s) ++ q (inc (de s))) -> rcv_t (de s) = ROk;
  d_left : (1 <=? dpcw (dp (dm s))) && (dpcw (dp (dm s)) <=? 9) = true -> rcv_ended (rcv_t (de s)) = true;
  d_live : rcv_ended (rcv_t (de s)) = false -> rxa (inc (de s)) = true }.

Lemma reach_doer_inv c x s : reach c x s -> DoerInv s.
Proof.
  apply reach_next_ind.
  - constructor; unfold init; projs; cbn [ch0 q txa rxa dpcw Nat.leb andb app]; auto; try discriminate.
    + intros [|? ?] ? E; discriminate E.
    + intros [].
  - intros a s0 s' R I H. destruct (reach_finv _ _ _ R) as [[_ _ _ Tx] _].
    next_cases H.
    + destruct I. constructor; cbn [ep_do]; projs; assumption.
    + destruct I as [Txa Rxa Ex Pe Ms N1 L N2 Sh Le Li].
      destruct M; rewrite P, ?H in *; cbn [dpcw Nat.leb andb] in *; constructor; cbn [ep_do]; projs; rewrite ?P, ?H;
        cbn [dpcw Nat.leb andb]; auto; try discriminate.
      * now inversion Pe.
      * apply Forall_app. split; [exact Ms|]. inversion Pe as [|? ? Y _]. destruct r; try discriminate Y; repeat constructor.
      * intros _ Z. apply in_snoc in Z as [Z|Z]; [now apply N1|]. subst r. inversion Pe as [|? ? Y _]. discriminate Y.
      * apply only_last_snoc. now apply N1.
      * rewrite cmd_ids_app, Ex. reflexivity.
      * destruct (plan_hd _); [repeat constructor|].
        apply Forall_forall. intros y Hy. apply in_map_iff in Hy as (z & <- & _). reflexivity.
      * intros _ Z. apply in_snoc in Z as [Z|Z]; [now apply N2 | discriminate Z].
      * destruct C as [t Q]. rewrite (took_head _ _ _ _ Q). exact Sh.
      * rewrite cmd_ids_app, Ex. cbn [cmd_ids]. now rewrite app_nil_r.
      * destruct C as [t Q]. rewrite (took_head _ _ _ _ Q). exact Sh.
      * (* the Shutdown was in the queue: the receiving thread ended when it pushed it *)
        intros _. rewrite Sh; [reflexivity|]. destruct C as [t ->]. apply in_or_app. right. now left.
      * rewrite cmd_ids_app, Ex. destruct m; try discriminate H0; cbn [cmd_ids]; now rewrite app_nil_r.
      * destruct C as [t Q]. rewrite (took_head _ _ _ _ Q). exact Sh.
      * intros _. rewrite H1 in Tx. now destruct (rcv_ended (rcv_t (de s0))).
      * intros Z. rewrite (Le eq_refl) in Z. discriminate Z.
    + destruct I as [Txa Rxa Ex Pe Ms N1 L N2 Sh Le Li]. rewrite P in *. cbn [dpcw Nat.leb andb] in *.
      constructor; projs; cbn [dpcw Nat.leb andb]; auto; try discriminate.
      * apply Forall_app. split; [exact Ms | repeat constructor].
      * apply only_last_snoc. now apply N1.
    + destruct I. constructor; projs; assumption.
    + destruct I. constructor; projs; assumption.
    + destruct E; destruct I; constructor; projs; assumption.
    + destruct I as [Txa Rxa Ex Pe Ms N1 L N2 Sh Le Li].
      destruct E as [f t K W G N | f t K W G | K W E | m K C X Z | m K C X Z | m K X]; rewrite K in *;
        cbn [rcv_ended] in *; constructor; projs; auto.
      (* a receiving thread that moves has not ended, so no Shutdown has come yet *)
      1, 2, 3, 5: intros Y; discriminate (Sh Y).
      intros Y. rewrite app_assoc in Y. apply in_snoc in Y as [Y| <-]; [discriminate (Sh Y) | discriminate Z].
    + destruct I. constructor; projs; assumption.
Qed.
