(* Proofs about Model/Histogram.v and Model/Meta.v (C18). *)
From RJ Require Import Base.Prelude Model.Chunk Model.Bincode Model.Progress Model.Histogram Model.Meta
  Proofs.ChunkProofs Proofs.BincodeProofs.
From Coq Require Import String.
Local Open Scope N_scope.

Fixpoint hsum (h : list N) : N := match h with [] => 0 | x :: t => x + hsum t end.

Lemma lenN_repeat {A} (x : A) n : lenN (repeat x n) = N.of_nat n.
Proof. rewrite lenN_spec, repeat_length. reflexivity. Qed.

Lemma hsum_app a b : hsum (a ++ b) = hsum a + hsum b.
Proof. induction a as [|x a IH]; cbn [app hsum]; lia. Qed.
Lemma hsum_zeros n : hsum (repeat 0 n) = 0.
Proof. induction n as [|n IH]; cbn [repeat hsum]; lia. Qed.

(* after the while loop the vector is longer than the index - whatever the index is *)
Lemma grow_spec h b : b < lenN (grow h b) /\ lenN (grow h b) = N.max (lenN h) (b + 1) /\ hsum (grow h b) = hsum h.
Proof.
  unfold grow. rewrite lenN_app, lenN_repeat, hsum_app, hsum_zeros, N2Nat.id. lia.
Qed.

Lemma elem_le_hsum h x : In x h -> x <= hsum h.
Proof.
  induction h as [|y h IH]; intros Hin; [destruct Hin|]. cbn [hsum].
  destruct Hin as [->|Hin]; [lia | specialize (IH Hin); lia].
Qed.

Lemma incr_at_ok : forall h i, i < lenN h -> hsum h + 1 < u32_lim ->
  exists h', incr_at h i = Ok h' /\ lenN h' = lenN h /\ hsum h' = hsum h + 1.
Proof.
  induction h as [|x t IH]; intros i Hi Hs.
  - rewrite lenN_nil in Hi. lia.
  - cbn [incr_at]. rewrite lenN_cons in Hi. cbn [hsum] in Hs.
    destruct (i =? 0) eqn:E.
    + destruct (x + 1 <? u32_lim) eqn:E2; [|lia].
      eexists. split; [reflexivity|]. rewrite !lenN_cons. cbn [hsum]. lia.
    + destruct (IH (N.pred i)) as (t' & H1 & H2 & H3); [lia|lia|].
      rewrite H1. cbn [obind]. eexists. split; [reflexivity|].
      rewrite !lenN_cons. cbn [hsum]. lia.
Qed.

Lemma hist_add_at_ok h b : hsum h + 1 < u32_lim ->
  exists h', hist_add_at h b = Ok h' /\ b < lenN h' /\ lenN h' = N.max (lenN h) (b + 1) /\ hsum h' = hsum h + 1.
Proof.
  intros Hs. destruct (grow_spec h b) as (G1 & G2 & G3). unfold hist_add_at.
  destruct (incr_at_ok (grow h b) b G1) as (h' & H1 & H2 & H3); [lia|].
  exists h'. split; [assumption|]. lia.
Qed.

(* For every index function and every sequence of values (fewer than 2^32 - 1 of them): no add panics. *)
Theorem hist_adds_ok (bucket_of : N -> N) : forall vals h, hsum h + lenN vals < u32_lim ->
  exists h', hist_adds bucket_of h vals = Ok h' /\ hsum h' = hsum h + lenN vals /\
             (vals <> [] -> h' <> []).
Proof.
  induction vals as [|v t IH]; intros h Hs; cbn [hist_adds].
  - exists h. rewrite lenN_nil. split; [reflexivity|]. split; [lia|congruence].
  - rewrite lenN_cons in Hs.
    destruct (hist_add_at_ok h (bucket_of v)) as (h1 & H1 & Hb & _ & H3); [lia|].
    rewrite H1. cbn [obind].
    destruct (IH h1) as (h' & H4 & H5 & H6); [lia|].
    exists h'. split; [assumption|]. rewrite lenN_cons. split; [lia|].
    intros _ ->. cbn [hsum] in H5. lia.
Qed.

Lemma list_max_pos h : 0 < hsum h -> 0 < list_max h.
Proof.
  induction h as [|x t IH]; [cbn [hsum]; lia|]. change (list_max (x :: t)) with (N.max x (list_max t)). cbn [hsum]. intros H.
  destruct (N.eq_dec x 0) as [->|Hx]; [|lia]. specialize (IH ltac:(lia)). lia.
Qed.

(* Display never panics, and when it gets to the division the maximum is positive for every vector
   that some sequence of adds can produce. *)
Theorem hist_display_total h : exists lines, hist_display h = Ok lines.
Proof. destruct h as [|x t]; unfold hist_display; cbn [is_nil max_opt]; eexists; reflexivity. Qed.

Theorem hist_display_max_positive (bucket_of : N -> N) vals h :
  lenN vals < u32_lim -> hist_adds bucket_of [] vals = Ok h -> h <> [] ->
  exists m, max_opt h = Some m /\ m = list_max h /\ 0 < m.
Proof.
  intros Hl Ha Hne.
  destruct (hist_adds_ok bucket_of vals []) as (h' & H1 & H2 & _); [cbn [hsum]; lia|].
  rewrite Ha in H1. injection H1 as <-. cbn [hsum] in H2.
  destruct vals as [|v t].
  - cbn [hist_adds] in Ha. injection Ha as <-. congruence.
  - rewrite lenN_cons in H2. destruct h as [|x r]; [congruence|]. cbn [max_opt].
    exists (list_max (x :: r)). split; [reflexivity|]. split; [reflexivity|]. apply list_max_pos. lia.
Qed.

(* the ideal index of a u64 is at most 19: the vector never grows beyond 20 buckets *)
Lemma log10_fuel_bound : forall f k v, v < 10 ^ N.of_nat (S k) -> log10_fuel f v <= N.of_nat k.
Proof.
  induction f as [|f IH]; intros k v Hv; cbn [log10_fuel]; [lia|].
  destruct (v <? 10) eqn:E; [lia|].
  destruct k as [|k].
  - change (10 ^ N.of_nat 1) with 10 in Hv. lia.
  - rewrite Nat2N.inj_succ, N.pow_succ_r' in Hv.
    assert (Hd : v / 10 < 10 ^ N.of_nat (S k)) by (apply N.div_lt_upper_bound; lia).
    specialize (IH k (v / 10) Hd). rewrite (Nat2N.inj_succ k). lia.
Qed.

Theorem bucket_ideal_u64 v : v <= u64_max -> bucket_ideal v <= 19.
Proof.
  intros Hv. unfold bucket_ideal. apply (log10_fuel_bound _ 19%nat).
  unfold u64_max in Hv. change (10 ^ N.of_nat 20) with 100000000000000000000. lia.
Qed.

Example bucket_ideal_examples :
  map bucket_ideal [0; 1; 9; 10; 99; 100; 999; 1000; 999999; 1000000; 18446744073709551615]
  = [0; 0; 0; 1; 1; 2; 2; 3; 5; 6; 19].
Proof. vm_compute. reflexivity. Qed.

Example hist_example :
  obind (hist_adds bucket_ideal [] [0; 5; 1500; 1500; 20000000]) (fun h => obind (hist_display h) (fun l => Ok (h, l)))
  = Ok ([2; 0; 0; 2; 0; 0; 0; 1],
        [plit "#  #    "%string; plit "#  #    "%string; plit "#  #   #"%string; plit "#  #   #"%string; plit "#  #   #"%string; plit "012K45M7"%string]).
Proof. vm_compute. reflexivity. Qed.

(* Every entry that the repaired decision lets through can be serialised ... *)
Theorem meta_ok_encodable m d : entry_of_meta true m = Ok d -> details_encodable d = true.
Proof.
  unfold entry_of_meta. destruct (m_type m).
  - intros [= <-]. reflexivity.
  - destruct (m_mtime m) as [t|]; [|discriminate]. cbn [andb].
    destruct (time_encodable t) eqn:E; cbn [negb]; [|discriminate].
    intros [= <-]. exact E.
  - destruct (m_link m) as [kt|]; [|discriminate]. intros [= <-]. reflexivity.
  - discriminate.
Qed.

(* ... hence computing the size of the message [mk d] that carries it (Entry, RootDetails) cannot panic, nor can
   the size of the Error message sent instead when the decision is an error: for every lstat result. *)
Lemma send_entry_never_panics (mk : entry_details -> response) m :
  (forall d, response_encodable (mk d) = details_encodable d) ->
  is_panic (match entry_of_meta true m with
            | Ok d => send_size_response (mk d) | Err e => send_size_response (RError e) | Panic p => Panic p
            end) = false.
Proof.
  intros Hmk. destruct (entry_of_meta true m) as [d|e|p] eqn:E.
  - rewrite send_size_panics_iff_response, Hmk, (meta_ok_encodable m d E). reflexivity.
  - rewrite send_size_panics_iff_response. reflexivity.
  - unfold entry_of_meta in E. destruct (m_type m); try discriminate.
    + destruct (m_mtime m) as [t|]; [|discriminate]. destruct (true && negb (time_encodable t)); discriminate.
    + destruct (m_link m); discriminate.
Qed.

Theorem send_listed_never_panics path m : is_panic (send_listed true path m) = false.
Proof. apply (send_entry_never_panics (REntry path)). reflexivity. Qed.

Theorem send_root_never_panics m diff sep : is_panic (send_root true m diff sep) = false.
Proof. apply (send_entry_never_panics (fun d => RRootDetails (Some d) diff sep)). reflexivity. Qed.

(* Every command whose times are times of listed entries: computing its size cannot panic. *)
Theorem command_from_listed_never_panics listed c :
  Forall (fun d => exists m, entry_of_meta true m = Ok d) listed ->
  cmd_from_listed listed c -> is_panic (send_size_command c) = false.
Proof.
  intros HL Hc. rewrite send_size_panics_iff_command.
  destruct c as [r|f| |p|p data [t|] more|p k t|p|p|p|p k| |mk| ]; cbn [command_encodable opt_ok negb]; try reflexivity.
  cbn [cmd_from_listed] in Hc. destruct Hc as (sz & Hin).
  destruct (proj1 (Forall_forall _ _) HL _ Hin) as (m & Hm).
  pose proof (meta_ok_encodable m _ Hm) as E. cbn [details_encodable] in E. now rewrite E.
Qed.

(* F8: the decision before the repair lets a file dated before the epoch through, and sending it panics. *)
Theorem pre_epoch_unfixed_refuted :
  let m := mkMeta FTFile (Some (mkTime (-315619200) 0)) 3 None in      (* 1960-01-01 *)
  entry_of_meta false m = Ok (EDFile (mkTime (-315619200) 0) 3) /\
  is_panic (send_listed false [] m) = true /\
  is_panic (send_root false m false (wlit "/"%string)) = true /\
  entry_of_meta true m = Err e_pre_epoch /\
  is_panic (send_listed true [] m) = false.
Proof. cbn zeta. repeat split; vm_compute; reflexivity. Qed.

(* non-vacuity: a file at the epoch, one nanosecond after it, far in the future; special files *)
Example meta_examples :
  entry_of_meta true (mkMeta FTFile (Some (mkTime 0 0)) 0 None) = Ok (EDFile (mkTime 0 0) 0) /\
  entry_of_meta true (mkMeta FTFile (Some (mkTime 0 1)) 5 None) = Ok (EDFile (mkTime 0 1) 5) /\
  entry_of_meta true (mkMeta FTFile (Some (mkTime (-1) 999999999)) 5 None) = Err e_pre_epoch /\
  entry_of_meta true (mkMeta FTFile (Some (mkTime 9223372036854775807 999999999)) 5 None)
    = Ok (EDFile (mkTime 9223372036854775807 999999999) 5) /\
  entry_of_meta true (mkMeta FTOther None 0 None) = Err e_file_type /\
  entry_of_meta true (mkMeta FTDir None 0 None) = Ok EDFolder /\
  entry_of_meta true (mkMeta FTSymlink None 0 (Some (SKUnknown, STNormalized (wlit "x"%string)))) = Ok (EDSymlink SKUnknown (STNormalized (wlit "x"%string))).
Proof. repeat split; vm_compute; reflexivity. Qed.
