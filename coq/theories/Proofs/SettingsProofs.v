From RJ Require Import Base.Prelude Model.Settings.
From Coq Require Import String.

(* The documented rule, written from the property text (C16):
   the individual flag if given; otherwise the all-destructive value unless the spec/default
   value is skip; otherwise the spec-file value or documented default ([base]). *)
Definition documented_rule (flag : option beh) (alld : option allb) (base : beh) : beh :=
  match flag with
  | Some v => v
  | None => match alld with
            | Some a => match base with BSkip => BSkip | _ => conv a end
            | None => base
            end
  end.

Lemma resolve_beh_documented flag alld base :
  resolve_beh flag alld base = documented_rule flag alld base.
Proof. destruct flag, alld as [[]|], base; reflexivity. Qed.

(* What holds between a sync before and after resolution. *)
Definition sync_resolved (c : cli) (s s' : sync_spec) : Prop :=
  s_src s' = s_src s /\ s_dest s' = s_dest s /\
  s_filters s' = (match c_filters c with [] => s_filters s | f => f end) /\
  s_newer s' = documented_rule (c_newer c) (c_all c) (s_newer s) /\
  s_older s' = documented_rule (c_older c) (c_all c) (s_older s) /\
  s_same s' = documented_rule (c_same c) (c_all c) (s_same s) /\
  s_entry s' = documented_rule (c_entry c) (c_all c) (s_entry s) /\
  s_root s' = documented_rule (c_root c) (c_all c) (s_root s).

Lemma resolve_sync_ok c s : sync_resolved c s (resolve_sync c s).
Proof.
  unfold sync_resolved, resolve_sync; cbn.
  rewrite !resolve_beh_documented. repeat split; reflexivity.
Qed.

Lemma resolve_over_all_syncs c base :
  Forall2 (sync_resolved c) (sp_syncs base) (sp_syncs (resolve_over c base)).
Proof.
  unfold resolve_over; cbn. induction (sp_syncs base) as [|s l IH]; cbn; constructor; auto.
  apply resolve_sync_ok.
Qed.

Lemma resolve_over_rest c base :
  sp_src_host (resolve_over c base) = sp_src_host base /\
  sp_src_user (resolve_over c base) = sp_src_user base /\
  sp_dest_host (resolve_over c base) = sp_dest_host base /\
  sp_dest_user (resolve_over c base) = sp_dest_user base /\
  sp_deploy (resolve_over c base) = match c_deploy c with Some d => d | None => sp_deploy base end.
Proof. repeat split; reflexivity. Qed.

Definition key_is (name : string) (kv : yaml * yaml) : bool :=
  match fst kv with YString x => str_eqb x (lit name) | _ => false end.

Lemma if_Some {A} (b : bool) (x y : option A) a :
  (if b then x else y) = Some a -> b = true /\ x = Some a \/ b = false /\ y = Some a.
Proof. destruct b; auto. Qed.

(* What sync_field accepts, as a case analysis: one of the eight keys with a value of the right
   shape, and it sets that key's field only. *)
Lemma sync_field_cases acc (P : yaml -> yaml -> sync_spec -> Prop) :
  (forall s, P (YString (lit "src")) (YString s)
     (mkSync s (s_dest acc) (s_filters acc) (s_newer acc) (s_older acc) (s_same acc) (s_entry acc) (s_root acc))) ->
  (forall s, P (YString (lit "dest")) (YString s)
     (mkSync (s_src acc) s (s_filters acc) (s_newer acc) (s_older acc) (s_same acc) (s_entry acc) (s_root acc))) ->
  (forall es l, parse_filters es = Some l -> P (YString (lit "filters")) (YArray es)
     (mkSync (s_src acc) (s_dest acc) (s_filters acc ++ l) (s_newer acc) (s_older acc) (s_same acc) (s_entry acc) (s_root acc))) ->
  (forall s b, P (YString (lit "dest_file_newer_behaviour")) (YString s)
     (mkSync (s_src acc) (s_dest acc) (s_filters acc) b (s_older acc) (s_same acc) (s_entry acc) (s_root acc))) ->
  (forall s b, P (YString (lit "dest_file_older_behaviour")) (YString s)
     (mkSync (s_src acc) (s_dest acc) (s_filters acc) (s_newer acc) b (s_same acc) (s_entry acc) (s_root acc))) ->
  (forall s b, P (YString (lit "files_same_time_behaviour")) (YString s)
     (mkSync (s_src acc) (s_dest acc) (s_filters acc) (s_newer acc) (s_older acc) b (s_entry acc) (s_root acc))) ->
  (forall s b, P (YString (lit "dest_entry_needs_deleting_behaviour")) (YString s)
     (mkSync (s_src acc) (s_dest acc) (s_filters acc) (s_newer acc) (s_older acc) (s_same acc) b (s_root acc))) ->
  (forall s b, P (YString (lit "dest_root_needs_deleting_behaviour")) (YString s)
     (mkSync (s_src acc) (s_dest acc) (s_filters acc) (s_newer acc) (s_older acc) (s_same acc) (s_entry acc) b)) ->
  forall k v acc', sync_field acc k v = Some acc' -> P k v acc'.
Proof.
  intros P1 P2 P3 P4 P5 P6 P7 P8 k v acc'. unfold sync_field, parse_beh_field, parse_string.
  destruct k as [| |x|]; try discriminate. intros H.
  (* src, dest *)
  do 2 (apply if_Some in H as [[E H]|[_ H]];
        [apply str_eqb_eq in E; destruct v; try discriminate; injection H as <-; rewrite E; auto|]).
  apply if_Some in H as [[E H]|[_ H]].
  { apply str_eqb_eq in E. destruct v as [|es| |]; try discriminate. destruct (parse_filters es) eqn:F; [|discriminate].
    injection H as <-. rewrite E. auto. }
  (* the five behaviours *)
  do 5 (apply if_Some in H as [[E H]|[_ H]];
        [apply str_eqb_eq in E; destruct v; try discriminate; destruct (beh_of_str _ _); [|discriminate];
         injection H as <-; rewrite E; auto|]).
  discriminate.
Qed.

(* A field is kept through a whole entry none of whose keys is the one that sets it. *)
Lemma sync_fields_keep {A} (f : sync_spec -> A) n :
  (forall acc k v acc', sync_field acc k v = Some acc' -> key_is n (k, v) = false -> f acc' = f acc) ->
  forall kvs acc s, sync_fields acc kvs = Some s -> forallb (fun kv => negb (key_is n kv)) kvs = true -> f s = f acc.
Proof.
  intros Hf. induction kvs as [|[k v] r IH]; intros acc s H F; cbn [sync_fields forallb] in *; [now injection H as <-|].
  destruct (sync_field acc k v) as [acc'|] eqn:E; [|discriminate]. apply andb_true_iff in F as [F1 F2].
  rewrite (IH _ _ H F2). apply (Hf _ _ _ _ E). now apply negb_true_iff.
Qed.

Lemma sync_fields_absent kvs : forall acc s,
  sync_fields acc kvs = Some s ->
  (forallb (fun kv => negb (key_is "dest_file_newer_behaviour" kv)) kvs = true -> s_newer s = s_newer acc) /\
  (forallb (fun kv => negb (key_is "dest_file_older_behaviour" kv)) kvs = true -> s_older s = s_older acc) /\
  (forallb (fun kv => negb (key_is "files_same_time_behaviour" kv)) kvs = true -> s_same s = s_same acc) /\
  (forallb (fun kv => negb (key_is "dest_entry_needs_deleting_behaviour" kv)) kvs = true -> s_entry s = s_entry acc) /\
  (forallb (fun kv => negb (key_is "dest_root_needs_deleting_behaviour" kv)) kvs = true -> s_root s = s_root acc) /\
  (forallb (fun kv => negb (key_is "filters" kv)) kvs = true -> s_filters s = s_filters acc).
Proof.
  (* a key either is not the one in question, and sets another field, or it is, against the premise *)
  intros acc s H. repeat split; apply (fun f n Hf => sync_fields_keep f n Hf kvs acc s H);
    intro a; apply (sync_field_cases a (fun k v a' => key_is _ (k, v) = false -> _ a' = _ a));
    intros; first [reflexivity | discriminate].
Qed.

(* The documented defaults (C16 text): newer prompt, older overwrite, same skip, entry delete,
   root prompt, deploy prompt. *)
Lemma documented_defaults :
  s_newer default_sync = BPrompt /\ s_older default_sync = BAct /\ s_same default_sync = BSkip /\
  s_entry default_sync = BAct /\ s_root default_sync = BPrompt /\ sp_deploy default_spec = DPrompt /\
  s_filters default_sync = [].
Proof. repeat split; reflexivity. Qed.

Definition known_sync_key (kv : yaml * yaml) : bool :=
  key_is "src" kv || key_is "dest" kv || key_is "filters" kv ||
  key_is "dest_file_newer_behaviour" kv || key_is "dest_file_older_behaviour" kv ||
  key_is "files_same_time_behaviour" kv || key_is "dest_entry_needs_deleting_behaviour" kv ||
  key_is "dest_root_needs_deleting_behaviour" kv.

Definition sync_value_ok (kv : yaml * yaml) : bool :=
  if key_is "filters" kv then
    match snd kv with YArray es => forallb (fun e => match e with YString _ => true | _ => false end) es | _ => false end
  else match snd kv with YString _ => true | _ => false end.

Lemma parse_filters_strings es l : parse_filters es = Some l ->
  forallb (fun e => match e with YString _ => true | _ => false end) es = true.
Proof.
  revert l; induction es as [|e r IH]; intros l H; cbn in *; [reflexivity|].
  destruct e; try discriminate. destruct (parse_filters r) eqn:E; [|discriminate].
  cbn. eapply IH; eauto.
Qed.

Lemma sync_field_strict acc k v acc' :
  sync_field acc k v = Some acc' -> known_sync_key (k, v) = true /\ sync_value_ok (k, v) = true.
Proof.
  (* each key is one literal: whether it is known, and whether it is "filters", is a computation *)
  revert k v acc'. apply sync_field_cases; intros; split; try reflexivity.
  cbn. eapply parse_filters_strings; eauto.
Qed.

Lemma sync_fields_strict kvs : forall acc s, sync_fields acc kvs = Some s ->
  forallb (fun kv => known_sync_key kv && sync_value_ok kv) kvs = true.
Proof.
  induction kvs as [|[k v] r IH]; intros acc s H; cbn in *; [reflexivity|].
  destruct (sync_field acc k v) eqn:E; [|discriminate].
  apply sync_field_strict in E as [E1 E2]. rewrite E1, E2. cbn. eapply IH; eauto.
Qed.

Lemma parse_sync_spec_strict y s : parse_sync_spec y = Some s ->
  exists kvs, y = YHash kvs /\
    forallb (fun kv => known_sync_key kv && sync_value_ok kv) kvs = true /\
    s_src s <> [] /\ s_dest s <> [].
Proof.
  unfold parse_sync_spec. destruct y; try discriminate. intros H.
  destruct (sync_fields default_sync kvs) as [s0|] eqn:E; [|discriminate].
  exists kvs. split; [reflexivity|]. split; [eapply sync_fields_strict; eauto|].
  destruct (s_src s0) eqn:E1; [discriminate|]. destruct (s_dest s0) eqn:E2; [discriminate|].
  inversion H; subst. rewrite E1, E2. split; discriminate.
Qed.

Definition one_sync_doc (sh su dh du p q : str) : yaml :=
  YHash [ (YString (lit "src_hostname"), YString sh); (YString (lit "src_username"), YString su);
          (YString (lit "dest_hostname"), YString dh); (YString (lit "dest_username"), YString du);
          (YString (lit "syncs"), YArray [ YHash [ (YString (lit "src"), YString p); (YString (lit "dest"), YString q) ] ]) ].

Definition with_paths (c : cli) (sh su dh du p q : str) : cli :=
  mkCli (Some (su, sh, p)) (Some (du, dh, q)) (c_filters c) (c_deploy c)
        (c_newer c) (c_older c) (c_same c) (c_entry c) (c_root c) (c_all c).

Lemma resolve_over_ext c c' base :
  c_filters c = c_filters c' -> c_deploy c = c_deploy c' -> c_newer c = c_newer c' ->
  c_older c = c_older c' -> c_same c = c_same c' -> c_entry c = c_entry c' -> c_root c = c_root c' ->
  c_all c = c_all c' -> resolve_over c base = resolve_over c' base.
Proof.
  intros H1 H2 H3 H4 H5 H6 H7 H8. unfold resolve_over. rewrite H2. f_equal.
  apply map_ext. intros s. unfold resolve_sync. rewrite H1, H3, H4, H5, H6, H7, H8. reflexivity.
Qed.

Lemma spec_equiv c sh su dh du p q :
  p <> [] -> q <> [] ->
  resolve_spec c (Some (Some (one_sync_doc sh su dh du p q))) =
  resolve_spec (with_paths c sh su dh du p q) None.
Proof.
  intros Hp Hq. destruct p as [|p0 p]; [contradiction|]. destruct q as [|q0 q]; [contradiction|].
  unfold resolve_spec, with_paths, spec_of_args. cbn [c_src c_dest].
  assert (E : parse_spec_doc (one_sync_doc sh su dh du (p0 :: p) (q0 :: q)) =
              Some (mkSpec sh su dh du (sp_deploy default_spec)
                     [mkSync (p0 :: p) (q0 :: q) [] (s_newer default_sync) (s_older default_sync)
                             (s_same default_sync) (s_entry default_sync) (s_root default_sync)])).
  { vm_compute. reflexivity. }
  rewrite E. apply f_equal. apply resolve_over_ext; reflexivity.
Qed.

(* A spec file that does not parse yields no spec at all, whatever the command line says. *)
Lemma reject_unparsable c doc : parse_spec_doc doc = None -> resolve_spec c (Some (Some doc)) = None.
Proof. intros H. unfold resolve_spec. now rewrite H. Qed.
Lemma reject_unreadable c : resolve_spec c (Some None) = None.
Proof. reflexivity. Qed.
