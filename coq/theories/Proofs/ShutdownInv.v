(* Invariant of the shutdown protocol model (C09): channel flags against thread liveness, the shape of the
   source's reply stream, and what the boss's position promises about the queues and the exit status. *)
From RJ Require Import Base.Prelude Model.Shutdown Proofs.ShutdownProofs.

Local Open Scope nat_scope.

Definition term (r : sresp) : bool := match r with SChunk _ l => l | SErr => true end.
Definition ends_term (l : list sresp) : Prop := forall pre x, l = pre ++ [x] -> term x = true.
Definition exited (l : life) : bool := match l with ExitOk | ExitErr => true | _ => false end.
Definition mid (p : bpc) : bool := match p with BRecv | BFwd _ false | BPoll false => true | _ => false end.
Definition at_wait (p : bpc) : bool := match p with BWait => true | _ => false end.
Definition at_joins (p : bpc) : bool := match p with BJoinS => true | _ => false end.
Definition at_joind (p : bpc) : bool := match p with BJoinD => true | _ => false end.
Definition joined (p : bpc) : bool := match p with BShutD | BJoinD => true | _ => false end.
Definition is_get (m : scmd) : bool := match m with SGet => true | SShut => false end.
Definition is_shut (m : scmd) : bool := match m with SGet => false | SShut => true end.
Definition is_done (m : dcmd) : bool := match m with DDone => true | _ => false end.
Definition is_dshut (m : dcmd) : bool := match m with DShut => true | _ => false end.

(* Every conditional fact is a disjunction whose guards compute, so that a step which leaves the position or
   ends the thread makes it true by evaluation. *)
Record Inv (c : config) (s : st) : Prop := {
  (* a doer's channel ends are alive exactly while its thread runs *)
  i_rcs : rxa (cs s) = running (slife (sd s));
  i_trs : txa (rs s) = running (slife (sd s));
  i_rcd : rxa (cd s) = running (dlife (dd s));
  i_trd : txa (rd s) = running (dlife (dd s));
  (* the source's replies, queued and still to send, end with a last chunk or an Error *)
  i_stream : ends_term (q (rs s) ++ spend (sd s));
  (* mid-file a running source owes a reply, or has the GetFileContent still to take *)
  i_mid : mid (pc (bo s)) = false \/ running (slife (sd s)) = false \/
          q (rs s) ++ spend (sd s) <> [] \/ existsb is_get (q (cs s)) = true;
  (* while the boss blocks for the echo of Done, a running destination has a reply on its way or the marker to take *)
  i_wait : at_wait (pc (bo s)) = false \/ running (dlife (dd s)) = false \/
           q (rd s) ++ dpend (dd s) <> [] \/ existsb is_done (q (cd s)) = true;
  (* while the boss joins a running doer, the Shutdown is queued and - repaired - the boss's receiver is dropped *)
  i_js : at_joins (pc (bo s)) = false \/ running (slife (sd s)) = false \/ existsb is_shut (q (cs s)) = true;
  i_jsr : at_joins (pc (bo s)) = false \/ fixed c = false \/ rxa (rs s) = false;
  i_jd : at_joind (pc (bo s)) = false \/ running (dlife (dd s)) = false \/ existsb is_dshut (q (cd s)) = true;
  i_jdr : at_joind (pc (bo s)) = false \/ fixed c = false \/ rxa (rd s) = false;
  (* past its join the source doer has returned, and did not panic *)
  i_ex : joined (pc (bo s)) = false \/ exited (slife (sd s)) = true;
  (* main's exit status: 101 when a doer thread panicked (the join's expect), else 12 for a failed sync *)
  i_end : final s = false \/ bexit (bo s) =
          if is_dead (slife (sd s)) || is_dead (dlife (dd s)) then 101%N else if berr (bo s) then 12%N else 0%N
}.

Lemma ends_term_tail x l : ends_term (x :: l) -> ends_term l.
Proof. intros H pre y E. apply (H (x :: pre) y). now rewrite E. Qed.

Lemma ends_term_nonlast x l : ends_term (x :: l) -> term x = false -> l <> [].
Proof. intros H Hx ->. specialize (H [] x eq_refl). congruence. Qed.

Lemma ends_term_snoc l x : term x = true -> ends_term (l ++ [x]).
Proof. intros H pre y E. now apply app_inj_tail in E as [_ <-]. Qed.

Lemma chunks_last hd tl : exists l n, chunks_from hd tl = l ++ [SChunk n true].
Proof.
  revert hd. induction tl as [|x r IH]; intros hd; cbn [chunks_from]; [now exists [], hd|].
  destruct (IH x) as (l & n & ->). now exists (SChunk hd false :: l), n.
Qed.

Lemma existsb_snoc {A} (f : A -> bool) l x : f x = true -> existsb f (l ++ [x]) = true.
Proof. intros H. rewrite existsb_app. cbn [existsb]. rewrite H. apply orb_true_r. Qed.

Lemma snoc_nonnil {A} (l : list A) x : l ++ [x] <> [].
Proof. now destruct l. Qed.

Lemma inv_init c x : Inv c (init x).
Proof. constructor; cbn; auto. intros [|] ? [=]. Qed.

Ltac simp := cbn [mid exited joined at_wait at_joins at_joind is_dead orb existsb is_get is_shut is_done is_dshut app] in *.

Lemma inv_step c a s s' : next c a s = Some s' -> Inv c s -> Inv c s'.
Proof.
  (* transition by transition, field by field: all but a few goals are the old fact, hold by evaluation, or
     follow from one of the hints *)
  steps a s; intros [? ? ? ? St ? ? ? ? ? ? Ex ?]; proj; simp; constructor; proj; simp; auto;
  rewrite <- ?app_assoc; simp; eauto using ends_term_tail, ends_term_snoc, existsb_snoc, snoc_nonnil.
  - (* BRecv takes a chunk that is not the last one: it has a successor in the stream *)
    destruct lst; [auto | right; right; left; eapply ends_term_nonlast; eauto].
  - (* BJoinD ends the process, three ways: the source doer was seen ended at its join, so it is not dead *)
    destruct Ex as [[=]|Ex]. destruct sl; try discriminate Ex; auto.
  - destruct Ex as [[=]|Ex]. destruct sl; try discriminate Ex; auto.
  - destruct Ex as [[=]|Ex]. destruct sl; try discriminate Ex; auto.
  - (* the source takes a GetFileContent (stream, then mid-file): the chunks of a file end with a last chunk *)
    destruct (chunks_last (fhd f) (ftl f)) as (l & n & E). unfold fchunks. rewrite E, app_assoc.
    now apply ends_term_snoc.
  - destruct (chunks_last (fhd f) (ftl f)) as (l & n & E). unfold fchunks. rewrite E, app_assoc.
    right; right; left. apply snoc_nonnil.
Qed.

Lemma reach_inv c x s : reach c x s -> Inv c s.
Proof. apply reach_invariant; [apply inv_init | intros; eapply inv_step; eauto]. Qed.
