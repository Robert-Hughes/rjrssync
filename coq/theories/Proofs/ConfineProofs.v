(* C02 / C12: the source doer is only asked to read; an effect can leave the destination only
   through an existing destination symlink; symlinks are leaves of every listing. *)
From RJ Require Import Base.Prelude Base.OrderedPlan Model.Settings Model.Core Model.Fs Model.Sync
  Spec.PlanSpec Spec.Mirror Proofs.FsProofs Proofs.StepProofs Proofs.SyncProofs Proofs.DryProofs Proofs.ExecProofs Proofs.PathLemmas
  Proofs.MirrorProofs Proofs.QuietProofs.

Lemma run_steps_src fl ft steps : forall r,
  exists l, rs_src (run_steps fl ft r steps) = rs_src r ++ l /\ Forall (fun c => read_only c = true) l.
Proof.
  intros r0. apply (run_steps_inv fl ft (fun r => exists l, rs_src r = rs_src r0 ++ l /\ Forall (fun c => read_only c = true) l));
    [|exists []; rewrite app_nil_r; split; auto].
  intros r s (l & E & F). destruct (run_step_cases fl ft r s) as [-> | ->]; [eauto|].
  destruct s as [c|p]; unfold do_step.
  - exists l. destruct (snd _); cbn [rs_src]; split; assumption.
  - exists (l ++ [CGetFileContent p]). cbn [rs_src]. rewrite E, app_assoc. split; [reflexivity|].
    apply Forall_app. split; [exact F|repeat constructor].
Qed.

Section Confine.
Variable now_z : N -> Z.
Variable normalize : str -> target.
Variable chunker : str -> list str.
Notation sync_one := (sync_one now_z normalize chunker).
Notation entry_of := (entry_of now_z normalize).

(* Whatever the arguments, outcome, prompt answers or faults: the source doer is only ever asked to
   report its root, list entries and read file contents. *)
Theorem source_only_read cfg S D ans bits ls ld ft :
  Forall (fun c => read_only c = true) (r_src_trace (sync_one cfg S D ans bits ls ld ft)).
Proof.
  unfold Sync.sync_one.
  assert (H0 : forall x : entry, Forall (fun c => read_only c = true) (CSetRoot :: match x with EFolder => [CGetEntries] | _ => [] end)).
  { intros x. constructor; [reflexivity|]. destruct x; repeat constructor. }
  assert (H1 : Forall (fun c => read_only c = true) [CSetRoot]) by (repeat constructor).
  destruct (fget S []) as [sn|]; [|exact H1].
  match goal with |- context [match ?g with inl _ => _ | inr _ => _ end] => destruct g as [[ans1 np1]|[[|] np]] end;
    try exact H1.
  set (r0 := mkR D _ _ [] false 0 0 None).
  match goal with |- context [run_steps ?fl ft r0 ?pre] => destruct (run_steps_src fl ft pre r0) as (l1 & E1 & F1); set (r1 := run_steps fl ft r0 pre) in * end.
  assert (Hr1 : Forall (fun c => read_only c = true) (rs_src r1)).
  { rewrite E1. apply Forall_app. split; [apply H0|exact F1]. }
  match goal with |- context [actions_of ?d ?s ?a] => destruct (actions_of d s a) as [acts|] end; [|exact Hr1].
  match goal with |- context [confirm ?b ?a ?x] => destruct (confirm b a x) as [|acts' skipped b2 a2 np2] end; [exact Hr1|].
  destruct (cf_dry cfg); [exact Hr1|]. cbn [r_src_trace].
  destruct (run_steps_src (cf_fl cfg) ft (exec_steps chunker S acts') r1) as (l2 & E2 & F2).
  rewrite E2. apply Forall_app. split; assumption.
Qed.

End Confine.

Lemma resolve_above_through st p q : resolve_above st p = PRThrough q -> exists t, fget (d_fs st) q = Some (NLink t SKFolder).
Proof.
  unfold resolve_above. destruct p as [|c p]; [destruct (d_anc st); discriminate|].
  intros H. destruct (check_above_through_at _ _ _ _ H) as (_ & t & _ & _ & Hf). eauto.
Qed.

Theorem through_needs_link fl st c q :
  In (Through q) (skipn (length (d_events st)) (d_events (fst (doer_exec fl st c)))) ->
  exists t k, fget (d_fs st) q = Some (NLink t k).
Proof.
  assert (Hskip : forall l, skipn (length (d_events st)) (d_events st ++ l) = l).
  { intros l. rewrite skipn_app, skipn_all, Nat.sub_diag. reflexivity. }
  destruct (doer_exec_log fl st c) as [E|[E|(p & q' & _ & Hq & E)]]; rewrite E, ?Hskip, ?skipn_all.
  - intros [].
  - intros [[=]|[]].
  - intros [[= ->]|[]]. destruct Hq as [Hq|(-> & Hq)]; [|exact Hq].
    apply resolve_above_through in Hq as (t & Hq). eauto.
Qed.

Lemma visible_no_link_above incl f p q t k :
  q <> [] -> visible incl f p = true -> is_strict_prefix q p = true -> fget f q = Some (NLink t k) -> False.
Proof.
  intros Hqne Hv Hq Hl. apply visible_iff in Hv as (Hp & _ & Hpre).
  destruct (Hpre q Hqne Hq) as [_ Hf]. congruence.
Qed.

Lemma needs_delete_links diff ks ts kd td :
  needs_delete diff (ESymlink ks ts) (ESymlink kd td) = true <->
  ts <> td \/ (diff = true /\ ks <> kd).
Proof.
  cbn [needs_delete]. destruct (target_eqb ts td) eqn:Et; cbn [negb].
  - assert (ts = td) by (destruct ts, td; cbn in Et; try discriminate; apply str_eqb_eq in Et; congruence). subst td.
    destruct (skind_eqb ks kd) eqn:Ek; cbn [negb andb].
    + assert (ks = kd) by (destruct ks, kd; cbn in Ek; try discriminate; reflexivity). subst kd.
      split; [discriminate|]. intros [H|[_ H]]; congruence.
    + assert (ks <> kd) by (intros ->; destruct kd; discriminate).
      destruct diff; split; auto; try discriminate. intros [H'|[H' _]]; congruence.
  - split; [|reflexivity]. intros _. left. intros ->.
    destruct td; cbn in Et; rewrite str_eqb_refl in Et; discriminate.
Qed.

Lemma delete_symlink_only_link fl st p k st' e :
  doer_exec fl st (CDeleteSymlink p k) = (st', e) ->
  (forall q, q <> p -> fget (d_fs st') q = fget (d_fs st) q) /\
  (QuietProofs.quiet_at st p -> d_events st' = d_events st).
Proof.
  intros H. split.
  - intros q Hq. eapply doer_exec_frame; eauto. cbn. congruence.
  - intros Hqa. pose proof (QuietProofs.delete_quiet fl st (CDeleteSymlink p k) p) as X.
    rewrite H in X. cbn [fst] in X. apply X; [right; right; eauto|exact Hqa].
Qed.
