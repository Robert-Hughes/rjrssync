(* C07, last clause: after ANY run - successful, failed, or killed at any instant - every destination path
   is as it was, or as one of the plan's commands for that very path makes it (gone, a folder, the planned
   link, the complete source bytes with a set time), or a partly written file that carries the time of its
   last write; nothing else has been touched.  Instance 2 of Proofs/CrashProofs.gplan_safe. *)
From RJ Require Import Base.Prelude Base.OrderedPlan Model.Settings Model.Core Model.Fs Model.Sync
  Proofs.FsProofs Proofs.ExecProofs Proofs.CrashProofs Proofs.CrashMain.

Definition is_delete (c : cmd) : Prop :=
  match c with CDeleteFile _ | CDeleteFolder _ | CDeleteSymlink _ _ => True | _ => False end.

Lemma nonchunk_effect fl st c : is_chunk c = false -> forall q,
  fget (d_fs (fst (doer_exec fl st c))) q = fget (d_fs st) q \/
  (cmd_path c = Some q /\
   ((fget (d_fs (fst (doer_exec fl st c))) q = None /\ is_delete c) \/
    (fget (d_fs (fst (doer_exec fl st c))) q = Some NFolder /\ c = CCreateFolder q) \/
    (exists k t, c = CCreateSymlink q k t /\ fget (d_fs (fst (doer_exec fl st c))) q = Some (NLink (denormalize fl t) k)))).
Proof.
  intros Hc x. destruct (doer_exec_nc fl st c Hc) as [| | | | |p n Hn _ _|p Hd _ _]; try (left; reflexivity); dsimpl.
  - rewrite fget_fset. destruct (path_eq_dec x p) as [->|]; [right|left; reflexivity].
    destruct Hn; (split; [reflexivity|]); [right; left; auto|right; right; eauto].
  - rewrite fget_fdel. destruct (path_eq_dec x p) as [->|]; [right|left; reflexivity].
    destruct Hd; (split; [reflexivity|]); left; (split; [reflexivity|exact I]).
Qed.

Section Touched.
Variable fl : flavour.
Variable ft : faults.
Variable S : fs.
Variable D0 : fs.
Variable okc : cmd -> Prop.
Variable okf : path -> Z -> Prop.

Definition Touched (st : dstate) : Prop := forall q,
  fget (d_fs st) q = fget D0 q \/
  (fget (d_fs st) q = None /\ exists c, okc c /\ is_delete c /\ cmd_path c = Some q) \/
  (fget (d_fs st) q = Some NFolder /\ okc (CCreateFolder q)) \/
  (exists k t, fget (d_fs st) q = Some (NLink (denormalize fl t) k) /\ okc (CCreateSymlink q k t)) \/
  (exists k d mt, fget (d_fs st) q = Some (NFile (TNow k) d) /\ okf q mt) \/
  (exists mt full m, fget (d_fs st) q = Some (NFile (TSet mt) full) /\ fget S q = Some (NFile m full) /\ okf q mt).

Lemma touched_cmd st c : okc c -> is_chunk c = false -> Touched st -> Touched (fst (doer_exec fl st c)).
Proof.
  intros Hok Hc HT q.
  destruct (nonchunk_effect fl st c Hc q) as [Hsame|(Hp & [(Hn & Hd)|[(Hn & ->)|(k & t & -> & Hn)]])].
  - rewrite Hsame. apply HT.
  - right; left. split; [exact Hn|]. exists c. auto.
  - right; right; left. split; [exact Hn|exact Hok].
  - right; right; right; left. exists k, t. split; [exact Hn|exact Hok].
Qed.

Lemma touched_file st p mt full m s :
  okf p mt -> fget S p = Some (NFile m full) -> Touched st ->
  safe p mt full (fget (d_fs st) p) (d_fs st) s -> Touched s.
Proof.
  intros Hok HS HT [Hfr Hp] q. destruct (path_eq_dec q p) as [->|Hne].
  - destruct Hp as [Hp|[(k & dd & Hp)|Hp]].
    + rewrite Hp. apply HT.
    + right; right; right; right; left. exists k, dd, mt. split; [exact Hp|exact Hok].
    + right; right; right; right; right. exists mt, full, m. repeat split; assumption.
  - rewrite (Hfr q Hne). apply HT.
Qed.

(* a file that carries a set time is untouched or the complete source file: C08's invariant follows from C07's *)
Lemma touched_good st : Touched st -> Good S D0 st.
Proof.
  intros HT q t d Hq. destruct (HT q) as [E|[(E & _)|[(E & _)|[(k & tx & E & _)|[(k & dd & mt & E & _)|(mt & full & m & E & HS & _)]]]]];
    rewrite Hq in E; try discriminate E; [left; symmetry; exact E|].
  inversion E; subst. right. exists m. exact HS.
Qed.

Theorem touched_safe steps : gplan_ok S okc okf steps -> forall r, GJ ft Touched r ->
  (forall s, In s (steps_states fl ft r steps) -> no_through (d_events s) -> Touched s) /\ GJ ft Touched (run_steps fl ft r steps).
Proof.
  intros Hp r HJ. apply (gplan_safe fl ft S Touched okc okf); [| | |exact Hp|exact HJ].
  - intros st st' E HT q. rewrite E. apply HT.
  - intros st c Hok Hc HT. apply touched_cmd; assumption.
  - intros st p mt full m s Hok HS HT Hs. eapply touched_file; eauto.
Qed.

End Touched.

(* the commands and files "of the plan" read off a step list *)
Definition cmd_of_plan (whole : list bstep) (c : cmd) : Prop := In (DestCmd c) whole.
Definition file_of_plan (whole : list bstep) (p : path) (mt : Z) : Prop :=
  exists d smt more, In (DestCmd (CCreateOrUpdateFile p d smt more)) whole.

Lemma chunk_cmds_head p mt chunks : chunks <> [] ->
  exists d smt more rest, chunk_cmds p mt chunks = DestCmd (CCreateOrUpdateFile p d smt more) :: rest.
Proof.
  destruct chunks as [|c [|c2 r]]; [congruence| |]; intros _.
  - exists c, (Some mt), false, []. reflexivity.
  - exists c, None, true, (chunk_cmds p mt (c2 :: r)). reflexivity.
Qed.

Lemma plan_ok_of_whole S steps : plan_ok S steps -> forall whole, incl steps whole ->
  gplan_ok S (cmd_of_plan whole) (file_of_plan whole) steps.
Proof.
  unfold plan_ok.
  induction 1 as [|c rest Hc _ Hrest IH|q rest Hrest IH|p mt chunks m rest Hne HS _ Hrest IH]; intros whole Hin.
  - apply pk_nil.
  - apply pk_cmd; [exact Hc|apply Hin; left; reflexivity|apply IH; intros x Hx; apply Hin; right; exact Hx].
  - apply pk_fetch. apply IH. intros x Hx. apply Hin. right; exact Hx.
  - eapply pk_file; [exact Hne|exact HS| |apply IH; intros x Hx; apply Hin; apply in_or_app; right; exact Hx].
    destruct (chunk_cmds_head p mt chunks Hne) as (d & smt & more & r & E).
    exists d, smt, more. apply Hin. rewrite E. left; reflexivity.
Qed.

Section SyncTouched.
Variable now_z : N -> Z.
Variable normalize : str -> target.
Variable chunker : str -> list str.
Hypothesis chunker_ok : forall d, chunker d <> [] /\ concat (chunker d) = d.
Notation sync_one := (sync_one now_z normalize chunker).
Notation sync_plan := (sync_plan now_z normalize chunker).

Theorem only_planned_changes cfg S D ans bits ls ld ft :
  d_open D = None ->
  let steps := snd (sync_plan cfg S D ans bits ls ld) in
  let T := Touched (cf_fl cfg) S (d_fs D) (cmd_of_plan steps) (file_of_plan steps) in
  (forall s, In s (sync_kill_states now_z normalize chunker cfg S D ans bits ls ld ft) -> no_through (d_events s) -> T s) /\
  (no_through (d_events (r_dest (sync_one cfg S D ans bits ls ld ft))) -> T (r_dest (sync_one cfg S D ans bits ls ld ft))).
Proof.
  intros Ho steps T.
  assert (Hplan : gplan_ok S (cmd_of_plan steps) (file_of_plan steps) steps).
  { apply plan_ok_of_whole; [apply (sync_plan_ok now_z normalize chunker chunker_ok)|apply incl_refl]. }
  assert (HJ : GJ ft T (fst (sync_plan cfg S D ans bits ls ld))).
  { intros _. rewrite (sync_plan_start now_z normalize chunker). split; [intros q; left; reflexivity|left; exact Ho]. }
  destruct (touched_safe (cf_fl cfg) ft S (d_fs D) _ _ steps Hplan _ HJ) as [G1 G2].
  split; [exact G1|]. intros Hnt. rewrite (sync_one_runs_plan now_z normalize chunker) in *. apply G2. exact Hnt.
Qed.

End SyncTouched.
