(* The fixed-code primitives (fx = true) of Model/LE.v: when each succeeds and with what ([_ok]),
   its value under the success condition ([_eq]); fields of a byte string; NUL-terminated strings;
   the loop that adds a constant to one column of a table (bump_offsets of ELF, bump_ptrs of PE). *)
From RJ Require Import Base.Prelude Model.LE Proofs.LEProofs.
Local Open Scope N_scope.

Definition fieldN (bs : list byte) (off : N) (sz : nat) : N := decode_le (subN bs off (N.of_nat sz)).

(* [invb H E v]: from H : (v <- x ;; rest) = Ok _ to E : x = Ok v and H : rest = Ok _.
   [invc H C]: from H : (if c then _ else _) = Ok _ to C : c = true / false and H : the branch taken,
   dropping a branch that is an error. *)
Ltac invb H E v :=
  match type of H with
  | obind ?x _ = Ok _ => destruct x as [v|?|?] eqn:E; cbn [obind] in H; [ | discriminate H | discriminate H]
  end.
Ltac invc H C :=
  match type of H with
  | (if ?c then _ else _) = Ok _ => destruct c eqn:C; cbv beta iota in H; [try discriminate H | try discriminate H]
  end.

Lemma guard_ok {A} (c : bool) (a r : A) e : (if c then Ok a else Err e) = Ok r <-> r = a /\ c = true.
Proof. destruct c; intuition congruence. Qed.

Lemma uadd_ok m M a b c : uadd true m M a b = Ok c <-> c = a + b /\ a + b < M.
Proof. rewrite <- N.ltb_lt. apply guard_ok. Qed.
Lemma usub_ok m M a b c : usub true m M a b = Ok c <-> c = a - b /\ b <= a.
Proof. rewrite <- N.leb_le. apply guard_ok. Qed.
Lemma umul_ok m M a b c : umul true m M a b = Ok c <-> c = a * b /\ a * b < M.
Proof. rewrite <- N.ltb_lt. apply guard_ok. Qed.
Lemma ucast_ok M x y : ucast true M x = Ok y <-> y = x /\ x < M.
Proof. rewrite <- N.ltb_lt. apply guard_ok. Qed.

Lemma uadd_eq m M a b : a + b < M -> uadd true m M a b = Ok (a + b).
Proof. intros H. now apply uadd_ok. Qed.

Lemma align_inv m M x k r : align true m M x k = Ok r ->
  k <> 0 /\ r = (if x =? 0 then 0 else ((x - 1) / k + 1) * k) /\ (x <> 0 -> r < M).
Proof.
  unfold align. destruct (N.eqb_spec k 0) as [->|Hk]; [discriminate|].
  destruct (N.eqb_spec x 0) as [->|Hx].
  - intros [= <-]. repeat split; [exact Hk | congruence].
  - cbv zeta. destruct (N.ltb_spec (((x - 1) / k + 1) * k) M); [|discriminate].
    intros [= <-]. repeat split; auto.
Qed.
(* what rounding up means *)
Lemma align_spec x k : k <> 0 -> x <> 0 ->
  let r := ((x - 1) / k + 1) * k in x <= r /\ r < x + k /\ r mod k = 0.
Proof.
  intros Hk Hx r. subst r. pose proof (N.div_mod (x - 1) k Hk). pose proof (N.mod_lt (x - 1) k Hk).
  split; [nia|]. split; [nia|]. apply N.mod_mul. exact Hk.
Qed.
(* align in the form the proofs use it: 0 stays 0, otherwise the least multiple of k not below x *)
Lemma align_ok m M x k r : align true m M x k = Ok r ->
  k <> 0 /\ x <= r /\ r < x + k /\ (x <> 0 -> r < M) /\ (x = 0 -> r = 0).
Proof.
  intros H. apply align_inv in H as (Hk & -> & B). destruct (N.eqb_spec x 0) as [->|Hx].
  - repeat split; auto; lia.
  - pose proof (align_spec x k Hk Hx) as Q. cbv zeta in Q. repeat split; auto; lia.
Qed.

(* consecutive rows of a table with stride [c] *)
Lemma row_le a b c : a < b -> a * c + c <= b * c.
Proof. intros H. pose proof (N.mul_le_mono_r (a + 1) b c). lia. Qed.

(* bytes [x, x+n) of row j stay clear of bytes [lo, hi) of every other row, and lie below lo in its own *)
Lemma row_off j j' c x n lo hi : x + n <= lo -> hi <= c ->
  j * c + x + n <= j' * c + lo \/ j' * c + hi <= j * c + x.
Proof.
  intros H1 H2. destruct (N.le_gt_cases j j') as [G|G].
  - pose proof (N.mul_le_mono_r _ _ c G). lia.
  - pose proof (row_le j' j c G). lia.
Qed.

(* induction from [n] downwards *)
Lemma N_down_ind (P : N -> Prop) n : P n -> (forall i, i < n -> P (i + 1) -> P i) -> forall i, i <= n -> P i.
Proof.
  intros B S i Hi. remember (N.to_nat (n - i)) as d eqn:D. revert i Hi D.
  induction d as [|d IH]; intros i Hi D.
  - replace i with n by lia. exact B.
  - apply S; [lia|]. apply IH; lia.
Qed.

Lemma splice_ok bs pos ins r : splice_ins true bs pos ins = Ok r <-> pos <= lenN bs /\ r = insN bs pos ins.
Proof. unfold splice_ins. rewrite flen_eq, guard_ok, N.leb_le. tauto. Qed.
Lemma overwrite_ok bs off vs r : overwrite true bs off vs = Ok r <-> off + lenN vs <= lenN bs /\ r = updN bs off vs.
Proof. unfold overwrite. rewrite !flen_eq, guard_ok, N.leb_le. tauto. Qed.

Lemma split_trunc_eq bs at_ size : at_ <= lenN bs -> split_trunc true bs at_ size = Ok (subN bs at_ size).
Proof.
  intros H. unfold split_trunc. rewrite !flen_eq. apply N.leb_le in H. rewrite H. f_equal.
  destruct (N.ltb_spec size (lenN (dropN at_ bs))); [reflexivity|]. symmetry. now apply takeN_all.
Qed.

Lemma subN_nil_len bs d : subN bs d 0 = [].
Proof. reflexivity. Qed.

Lemma guard2_ok {A} (c1 c2 : bool) (a r : A) e1 e2 :
  (if c1 then Err e1 else if c2 then Ok a else Err e2) = Ok r <-> c2 = true /\ c1 = false /\ r = a.
Proof. destruct c1, c2; intuition congruence. Qed.

Lemma read_field_ok m sz bs off v :
  read_field true m sz bs off = Ok v <->
  off + N.of_nat sz <= lenN bs /\ off + N.of_nat sz < 18446744073709551616 /\ v = fieldN bs off sz.
Proof. unfold read_field. rewrite flen_eq, guard2_ok, N.leb_le, N.leb_gt. reflexivity. Qed.

Lemma write_field_ok m sz bs off v bs' :
  write_field true m sz bs off v = Ok bs' <->
  off + N.of_nat sz <= lenN bs /\ off + N.of_nat sz < 18446744073709551616 /\ bs' = updN bs off (encode_le sz v).
Proof. unfold write_field. rewrite flen_eq, guard2_ok, N.leb_le, N.leb_gt. reflexivity. Qed.

Lemma write_field_inv m sz bs off v bs' : write_field true m sz bs off v = Ok bs' ->
  off + N.of_nat sz <= lenN bs /\ bs' = updN bs off (encode_le sz v) /\ lenN bs' = lenN bs.
Proof. intros H. apply write_field_ok in H as (L & _ & ->). repeat split; [exact L | len]. Qed.

(* every offset into a string shorter than 2^64 is a usize *)
Lemma read_field_eq m sz bs off : lenN bs < 18446744073709551616 -> off + N.of_nat sz <= lenN bs ->
  read_field true m sz bs off = Ok (fieldN bs off sz).
Proof. intros B L. apply read_field_ok. repeat split; [exact L | lia]. Qed.

(* a read sees the length only through the bounds check, and the bytes only in its range *)
Lemma read_field_ext m m' sz a b off :
  (off + N.of_nat sz <= lenN a <-> off + N.of_nat sz <= lenN b) ->
  subN a off (N.of_nat sz) = subN b off (N.of_nat sz) ->
  read_field true m sz a off = read_field true m' sz b off.
Proof.
  intros L S. unfold read_field. rewrite !flen_eq, S.
  destruct (N.leb_spec (off + N.of_nat sz) (lenN a)), (N.leb_spec (off + N.of_nat sz) (lenN b)); try reflexivity; lia.
Qed.

Lemma fieldN_dropN bs a o sz : fieldN (dropN a bs) o sz = fieldN bs (a + o) sz.
Proof. unfold fieldN. now rewrite subN_dropN. Qed.

Lemma fieldN_lt bs off sz : off + N.of_nat sz <= lenN bs -> fieldN bs off sz < 256 ^ N.of_nat sz.
Proof.
  intros L. unfold fieldN. pose proof (decode_lt (subN bs off (N.of_nat sz))) as D.
  rewrite lenN_subN in D by exact L. exact D.
Qed.

Lemma fieldN_updN_same bs off sz v : off + N.of_nat sz <= lenN bs ->
  fieldN (updN bs off (encode_le sz v)) off sz = v mod 256 ^ N.of_nat sz.
Proof.
  intros L. unfold fieldN. rewrite <- (lenN_encode sz v) at 1.
  rewrite subN_updN_same by len. apply decode_encode.
Qed.

Lemma fieldN_put bs off sz v : off + N.of_nat sz <= lenN bs -> v < 256 ^ N.of_nat sz ->
  fieldN (updN bs off (encode_le sz v)) off sz = v.
Proof. intros L B. rewrite fieldN_updN_same by exact L. now apply N.mod_small. Qed.

Lemma fieldN_updN_disj bs off vs o2 sz2 : off + lenN vs <= lenN bs ->
  o2 + N.of_nat sz2 <= off \/ off + lenN vs <= o2 ->
  fieldN (updN bs off vs) o2 sz2 = fieldN bs o2 sz2.
Proof. intros L D. unfold fieldN. now rewrite subN_updN_disj. Qed.

Lemma field_roundtrip : forall m sz bs off v bs',
  write_field true m sz bs off v = Ok bs' ->
  read_field true m sz bs' off = Ok (v mod 256 ^ N.of_nat sz) /\ lenN bs' = lenN bs.
Proof.
  intros m sz bs off v bs' H. pose proof (proj1 (write_field_ok _ _ _ _ _ _) H) as (_ & B & _).
  apply write_field_inv in H as (L & -> & LL). split; [|exact LL].
  apply read_field_ok. rewrite LL. repeat split; [exact L | exact B |]. symmetry. now apply fieldN_updN_same.
Qed.

Lemma field_frame : forall m sz bs off v bs' sz2 off2,
  write_field true m sz bs off v = Ok bs' ->
  off2 + N.of_nat sz2 <= off \/ off + N.of_nat sz <= off2 ->
  read_field true m sz2 bs' off2 = read_field true m sz2 bs off2.
Proof.
  intros m sz bs off v bs' sz2 off2 H D. apply write_field_inv in H as (L & -> & LL).
  apply read_field_ext; [now rewrite LL | apply subN_updN_disj; len].
Qed.

Lemma read_string_eq bs off fuel : off < lenN bs -> read_string bs off fuel = rs (dropN off bs) fuel.
Proof. intros H. unfold read_string. rewrite flen_eq. apply N.ltb_lt in H. now rewrite H. Qed.

Lemma read_string_lt bs off fuel s : read_string bs off fuel = Ok s -> off < lenN bs.
Proof. unfold read_string. rewrite flen_eq. destruct (N.ltb_spec off (lenN bs)); [trivial | discriminate]. Qed.

Lemma rs_no_zero bs fuel s : rs bs fuel = Ok s -> ~ In zero s /\ (length s <= fuel)%nat.
Proof.
  revert bs s; induction fuel as [|f IH]; intros bs s H.
  - cbn in H. injection H as <-. split; [intros [] | cbn; lia].
  - cbn [rs] in H. destruct bs as [|c r]; [discriminate|].
    destruct (Ascii.eqb c zero) eqn:E; [injection H as <-; split; [intros [] | cbn; lia]|].
    destruct (rs r f) eqn:R; try discriminate. injection H as <-.
    destruct (IH _ _ R) as [I1 I2]. split; [|cbn [length]; lia].
    intros [->|Hin]; [rewrite Ascii.eqb_refl in E; discriminate | now apply I1].
Qed.

(* The scan looks at the string up to the first NUL, and at no more than [fuel] bytes: a prefix that
   contains a NUL, or is that long, decides the result, and the scan does not run off the end. *)
Lemma rs_prefix seg : forall fuel, In zero seg \/ (fuel <= length seg)%nat ->
  exists s, forall r, rs (seg ++ r) fuel = Ok s.
Proof.
  induction seg as [|c seg IH]; intros [|f] H; try (exists []; reflexivity).
  - destruct H as [[]|H]; cbn in H; lia.
  - cbn [rs app]. destruct (Ascii.eqb c zero) eqn:E; [exists []; reflexivity|].
    destruct (IH f) as [s Hs].
    { destruct H as [[->|H]|H]; [rewrite Ascii.eqb_refl in E; discriminate | now left | right; cbn in H; lia]. }
    exists (c :: s). intros r. now rewrite Hs.
Qed.

(* a NUL-free name is read back when a NUL follows it or the cap is reached at its end *)
Lemma rs_name name r : ~ In zero name -> forall fuel, (length name <= fuel)%nat ->
  (length name = fuel \/ exists r', r = zero :: r') -> rs (name ++ r) fuel = Ok name.
Proof.
  induction name as [|c name IH]; intros Hn fuel Hf St.
  - destruct fuel; [reflexivity|]. destruct St as [St|[r' ->]]; [discriminate St|].
    cbn [rs app]. now rewrite Ascii.eqb_refl.
  - destruct fuel as [|f]; [cbn [length] in Hf; lia|]. cbn [rs app].
    destruct (Ascii.eqb c zero) eqn:E.
    + apply Ascii.eqb_eq in E. subst c. exfalso. apply Hn. now left.
    + rewrite IH; [reflexivity | intros H; apply Hn; now right | cbn [length] in Hf; lia |].
      destruct St as [St|St]; [left; cbn [length] in St; lia | now right].
Qed.

Lemma read_string_prefix seg fuel : In zero seg \/ (0 < fuel)%nat /\ N.of_nat fuel <= lenN seg ->
  exists s, forall bs off r, dropN off bs = seg ++ r -> read_string bs off fuel = Ok s.
Proof.
  intros H. destruct (rs_prefix seg fuel) as [s Hs]; [destruct H as [H|[_ H]]; [now left | right; unfold lenN in H; lia]|].
  exists s. intros bs off r D. rewrite read_string_eq, D; [apply Hs|].
  apply (f_equal lenN) in D. rewrite lenN_dropN, lenN_app in D.
  assert (0 < lenN seg); [|lia]. destruct seg; [|rewrite lenN_cons; lia]. destruct H as [[]|H]; cbn in H; lia.
Qed.

Lemma read_string_name bs off fuel name r : off < lenN bs -> dropN off bs = name ++ r ->
  ~ In zero name -> (length name <= fuel)%nat -> (length name = fuel \/ exists r', r = zero :: r') ->
  read_string bs off fuel = Ok name.
Proof. intros L D Z F St. rewrite read_string_eq, D by exact L. now apply rs_name. Qed.

(* [loop] is either model loop, given by its two equations: it runs over the rows idx, idx+1, ...
   and replaces the [sz]-byte field at [at_ row] by its value plus [k], in arithmetic modulo [M].
   The fields of different rows do not overlap. *)
Section Bump.
Variables (m : mode) (M : N) (sz : nat) (at_ : N -> N) (k : N).
Variable loop : list byte -> N -> nat -> outcome (list byte).
Hypothesis loop_O : forall bs idx, loop bs idx O = Ok bs.
Hypothesis loop_S : forall bs idx c, loop bs idx (S c) =
  (orig <- read_field true m sz bs (at_ idx) ;; new <- uadd true m M orig k ;;
   bs' <- write_field true m sz bs (at_ idx) new ;; loop bs' (idx + 1) c).
Hypothesis fits : M <= 256 ^ N.of_nat sz.
Hypothesis apart : forall i j, i < j -> at_ i + N.of_nat sz <= at_ j.

Definition off_column (lo hi o n : N) : Prop :=
  forall j, lo <= j < hi -> o + n <= at_ j \/ at_ j + N.of_nat sz <= o.

Lemma bump_spec count : forall bs idx bs', loop bs idx count = Ok bs' ->
  lenN bs' = lenN bs /\
  (forall o n, off_column idx (idx + N.of_nat count) o n -> subN bs' o n = subN bs o n) /\
  (forall j, idx <= j < idx + N.of_nat count -> fieldN bs' (at_ j) sz = fieldN bs (at_ j) sz + k).
Proof.
  induction count as [|c IH]; intros bs idx bs' H.
  - rewrite loop_O in H. injection H as <-. repeat split. lia.
  - rewrite loop_S in H. invb H E1 orig. invb H E2 new. invb H E3 bs1.
    apply read_field_ok in E1 as (_ & _ & ->). apply uadd_ok in E2 as (-> & B).
    apply write_field_inv in E3 as (L & -> & LL).
    apply IH in H as (H1 & H2 & H3). split; [congruence|]. split.
    + intros o n D. rewrite H2 by (intros j Hj; apply D; lia).
      apply subN_updN_disj; [len | specialize (D idx); len].
    + intros j Hj. destruct (N.eq_dec j idx) as [->|Hne].
      * unfold fieldN at 1. rewrite H2 by (intros j' Hj'; left; apply apart; lia).
        apply fieldN_put; [exact L | lia].
      * rewrite H3 by lia. f_equal. apply fieldN_updN_disj; [len|].
        right. rewrite lenN_encode. apply apart. lia.
Qed.
End Bump.
