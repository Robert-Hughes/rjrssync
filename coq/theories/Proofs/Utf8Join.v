(* Well-formed UTF-8 is closed under concatenation; hence the link text a destination doer writes for a
   well-formed source text (denormalize Unix (normalize_unix t)) is well formed again. *)
From RJ Require Import Base.Prelude Model.Core Model.Fs Model.Paths Proofs.PathsProofs.

Lemma fuel_irrel : forall f1 f2 s, length s < f1 -> length s < f2 -> utf8_valid_fuel f1 s = utf8_valid_fuel f2 s.
Proof.
  induction f1 as [|f1 IH]; intros f2 s H1 H2; [lia|]. destruct f2 as [|f2]; [lia|].
  destruct s as [|c0 r]; [reflexivity|]. rewrite !valid_step. cbn [length] in H1, H2.
  destruct (follow c0) as [ts|]; [|reflexivity]. destruct (eat ts r) as [r'|] eqn:E; [|reflexivity].
  apply eat_length in E. apply IH; lia.
Qed.

Lemma valid_fuel_app : forall f a b0, length (a ++ b0) < f ->
  utf8_valid_fuel f a = true -> utf8_valid_fuel f b0 = true -> utf8_valid_fuel f (a ++ b0) = true.
Proof.
  induction f as [|f IH]; intros a b0 Hl Ha Hb; [reflexivity|].
  destruct a as [|c0 r]; [exact Hb|]. cbn [app length] in Hl |- *. rewrite app_length in Hl. rewrite valid_step in Ha |- *.
  destruct (follow c0) as [ts|]; [|discriminate]. destruct (eat ts r) as [r'|] eqn:E; [|discriminate].
  rewrite (eat_app _ _ _ _ E). apply eat_length in E.
  apply IH; [rewrite app_length; lia|exact Ha|rewrite (fuel_irrel f (S f) b0); [exact Hb| |]; lia].
Qed.

Lemma utf8_valid_app a b0 : utf8_valid a = true -> utf8_valid b0 = true -> utf8_valid (a ++ b0) = true.
Proof.
  unfold utf8_valid. intros Ha Hb. apply valid_fuel_app; [lia| |].
  - rewrite (fuel_irrel _ (S (length a)) a); [exact Ha| |]; rewrite ?app_length; lia.
  - rewrite (fuel_irrel _ (S (length b0)) b0); [exact Hb| |]; rewrite ?app_length; lia.
Qed.

Lemma utf8_valid_slash : utf8_valid [slash] = true.
Proof. vm_compute. reflexivity. Qed.

Lemma utf8_valid_join comps : forallb utf8_valid comps = true -> utf8_valid (join_with slash comps) = true.
Proof.
  induction comps as [|x r IH]; intros H; [reflexivity|]. cbn [forallb] in H. apply andb_true_iff in H as [Hx Hr].
  destruct r as [|y r']; [exact Hx|].
  change (join_with slash (x :: y :: r')) with (x ++ slash :: join_with slash (y :: r')).
  apply utf8_valid_app; [exact Hx|]. change (slash :: join_with slash (y :: r')) with ([slash] ++ join_with slash (y :: r')).
  apply utf8_valid_app; [exact utf8_valid_slash|apply IH; exact Hr].
Qed.

Theorem written_text_valid t : utf8_valid t = true -> utf8_valid (denormalize Unix (normalize_unix t)) = true.
Proof.
  intros H. unfold normalize_unix.
  destruct (is_absolute_unix t); [cbn [denormalize]; rewrite (lossy_valid t H); exact H|].
  destruct (forallb utf8_valid (unix_components t) && negb (existsb (contains backslash) (unix_components t))) eqn:E.
  - cbn [denormalize]. apply andb_true_iff in E as [E _]. apply utf8_valid_join. exact E.
  - cbn [denormalize]. rewrite (lossy_valid t H). exact H.
Qed.
