(* Remote session model: under resp_ok the boss's receiving thread never waits for capacity (C09). *)
From RJ Require Import Base.Prelude Model.RemoteSession Proofs.RemoteSessionBase.

Local Open Scope N_scope.

Definition cw (c : config) (m : msg) : N := match m with MCmd id rs => cmdw c id rs | _ => 0 end.
Definition hs (f : msg -> N) (t : sth) : N := match t with SHold m => f m | _ => 0 end.
Definition hr (f : msg -> N) (t : rth) : N := match t with RHold m => f m | _ => 0 end.
Fixpoint wsum (g : frame -> N) (l : list frame) : N := match l with [] => 0 | f :: t => g f + wsum g t end.
Definition fwt (c : config) (f : frame) : N := if fgood f then w c (fpay f) else 0.
Definition fcw (c : config) (f : frame) : N := cw c (fpay f).
Definition epot_out (f : msg -> N) (e : endpoint) : N := qsum f (q (outc e)) + hs f (snd_t e).
Definition epot_in (f : msg -> N) (e : endpoint) : N := hr f (rcv_t e) + qsum f (q (inc e)).
Definition finw (c : config) (p : dpc) : N := match p with DExit _ => 0 | _ => w c MFinal end.

(* Everything that can still arrive in the boss's receive channel.  First line: the answers that exist - queued for
   the boss or held by its receiving thread, in good frames doer->boss, in the doer's sending half, pending at its main
   thread - and the final message not yet written.  Second line: every command not yet executed - under way
   boss->doer or still in the protocol - at the weight [cmdw] of its answers plus the Error that may replace them.  A
   command is charged its answers until they exist, so no step makes [rpot] grow. *)
Definition rpot (c : config) (s : st) : N :=
  epot_in (w c) (be s) + wsum (fwt c) (d2b s) + epot_out (w c) (de s) + qsum (w c) (dpend (dm s)) + finw c (dp (dm s))
  + epot_in (cw c) (de s) + wsum (fcw c) (b2d s) + epot_out (cw c) (be s) + opsrw c (bops (bm s)).

Lemma qsum_app f l1 l2 : qsum f (l1 ++ l2) = qsum f l1 + qsum f l2.
Proof. induction l1 as [|x l IH]; cbn [qsum app]; [lia | rewrite IH; lia]. Qed.
Lemma wsum_app g l1 l2 : wsum g (l1 ++ l2) = wsum g l1 + wsum g l2.
Proof. induction l1 as [|x l IH]; cbn [wsum app]; [lia | rewrite IH; lia]. Qed.

Lemma fcw_wframe c e m bad : fcw c (wframe e m bad) <= cw c m.
Proof. unfold fcw, wframe. projs. destruct bad; cbn [cw]; lia. Qed.
Lemma fwt_wframe c e m bad : fwt c (wframe e m bad) <= w c m.
Proof. unfold fwt, wframe. projs. destruct bad; cbn [negb]; lia. Qed.
Lemma fwt_good c fr : fgood fr = true -> w c (fpay fr) <= fwt c fr.
Proof. intros G. unfold fwt. rewrite G. lia. Qed.

Lemma snd_spec_pot c f g e wr br bad e' wr' bad' :
  (forall m, g (wframe e m bad) <= f m) -> snd_spec c e wr br bad e' wr' bad' ->
  epot_out f e' + wsum g wr' <= epot_out f e + wsum g wr.
Proof.
  intros G [m t T Q | T Q X | m T B | m T B S]; unfold epot_out; projs; rewrite T, ?Q, ?wsum_app; cbn [hs qsum wsum];
    try lia.
  specialize (G m). lia.
Qed.

Lemma rcv_spec_pot c f g e wr eof e' wr' :
  (forall fr, fgood fr = true -> f (fpay fr) <= g fr) -> rcv_spec c e wr eof e' wr' ->
  epot_in f e' + wsum g wr' <= epot_in f e + wsum g wr.
Proof.
  intros G [fr t T W Gd N | fr t T W Gd | T W E | m T C X F | m T C X F | m T X]; unfold epot_in; projs;
    rewrite T, ?W, ?qsum_app; cbn [hr qsum wsum]; try lia.
  specialize (G _ Gd). lia.
Qed.

(* the two halves of an endpoint are accounted for separately *)
Lemma same_in_pot e e' f : same_in e e' -> epot_in f e' = epot_in f e.
Proof. intros (A & B & _). unfold epot_in. now rewrite A, B. Qed.
Lemma same_out_pot e e' f : same_out e e' -> epot_out f e' = epot_out f e.
Proof. intros (A & B & _). unfold epot_out. now rewrite A, B. Qed.

Definition sent_w (f : msg -> N) (o : eop) : N := match o with ESend m => f m | _ => 0 end.
Definition took_w (f : msg -> N) (o : eop) : N := match o with ERecv m => f m | _ => 0 end.

Lemma ep_do_pot c e o f : ep_can c e o ->
  epot_out f (ep_do e o) = epot_out f e + sent_w f o /\ epot_in f e = epot_in f (ep_do e o) + took_w f o.
Proof.
  destruct o; intros C; unfold epot_out, epot_in; cbn [ep_do sent_w took_w]; projs; try lia.
  - rewrite qsum_app. cbn [qsum]. lia.
  - destruct C as [t ->]. cbn [tl qsum]. lia.
Qed.

Lemma respw_map c id rs : qsum (w c) (map MResp rs) = respw c id rs.
Proof. induction rs as [|r t IH]; cbn [map qsum respw]; [reflexivity | rewrite IH; reflexivity]. Qed.

(* a command the boss hands over is paid for by its entry in the protocol, an answer by the command taken *)
Lemma boss_move_pot c s p o b' v' : boss_move s p o b' v' ->
  opsrw c (bops b') + sent_w (cw c) o <= opsrw c (bops (bm s)).
Proof.
  intros []; projs; rewrite ?H; cbn [opsrw sent_w cw]; try lia.
  destruct o0; lia.
Qed.

Lemma doer_move_pot c s p o d' : doer_move s p o d' -> dp (dm s) = p ->
  qsum (w c) (dpend d') + finw c (dp d') + sent_w (w c) o <= qsum (w c) (dpend (dm s)) + finw c p + took_w (cw c) o.
Proof.
  intros [] P; projs; rewrite ?P, ?H; cbn [qsum finw sent_w took_w cw]; try lia.
  destruct (plan_hd _); [cbn [qsum]; unfold cmdw, zerr; lia | rewrite (respw_map c id); unfold cmdw; lia].
Qed.

Theorem pot_step c a s s' : next c a s = Some s' -> rpot c s' <= rpot c s.
Proof.
  intros H. next_cases H;
    unfold rpot; projs.
  - pose proof (boss_move_pot c _ _ _ _ _ M). destruct (ep_do_pot c _ _ (w c) C). destruct (ep_do_pot c _ _ (cw c) C). lia.
  - pose proof (doer_move_pot c _ _ _ _ M P). destruct (ep_do_pot c _ _ (w c) C). destruct (ep_do_pot c _ _ (cw c) C).
    subst p. lia.
  - rewrite P, wsum_app. unfold epot_out, epot_in. projs. cbn [finw wsum]. unfold fwt. projs.
    destruct (bad_d2b (ev s)); cbn [negb]; lia.
  - pose proof (snd_spec_pot c (cw c) (fcw c) _ _ _ _ _ _ _ (fun m => fcw_wframe c _ m _) E).
    rewrite (same_in_pot _ _ (w c) (snd_spec_in _ _ _ _ _ _ _ _ E)). lia.
  - pose proof (rcv_spec_pot c (w c) (fwt c) _ _ _ _ _ (fwt_good c) E).
    rewrite (same_out_pot _ _ (cw c) (rcv_spec_out _ _ _ _ _ _ E)). lia.
  - pose proof (snd_spec_pot c (w c) (fwt c) _ _ _ _ _ _ _ (fun m => fwt_wframe c _ m _) E).
    rewrite (same_in_pot _ _ (cw c) (snd_spec_in _ _ _ _ _ _ _ _ E)). lia.
  - pose proof (rcv_spec_pot c (cw c) (fcw c) _ _ _ _ _ (fun fr _ => N.le_refl _) E).
    rewrite (same_out_pot _ _ (w c) (rcv_spec_out _ _ _ _ _ _ E)). lia.
  - lia.
Qed.

Lemma reach_pot c x s : reach c x s -> rpot c s <= opsrw c (sc_ops x) + w c MFinal.
Proof.
  apply (reach_next_ind c x (fun s => rpot c s <= opsrw c (sc_ops x) + w c MFinal)).
  - unfold rpot, init, epot_in, epot_out. projs. cbn [ch0 q qsum hr hs wsum finw]. lia.
  - intros a s0 s' _ IH H. pose proof (pot_step _ _ _ _ H). lia.
Qed.

Theorem receiver_never_waits c x s : resp_ok c x -> reach c x s -> can_send c (inc (be s)) = true.
Proof.
  unfold resp_ok, can_send. intros O R. pose proof (reach_pot _ _ _ R) as P. unfold rpot, epot_in in P.
  apply orb_true_iff. left. apply N.leb_le. lia.
Qed.
