(* C17: the N-worker directory walk of Model/Walker.v.  One invariant over all interleavings (Inv: the bookkeeping of
   the job counter, and conservation of results - received + queued + still to be sent is the reference walk) and a
   measure; from them: the listing is complete exactly at end-of-list, the walk fails only on a read error, nobody
   panics, no reachable state is stuck, every execution ends, parents come first. *)
From RJ Require Import Base.Prelude Model.Walker.
From Coq Require Import Permutation.

(* induction over trees, nested through the child list *)
Fixpoint tree_ind' (P : tree -> Prop)
  (HL : forall k, P (Leaf k))
  (HD : forall r ch, Forall (fun c : child => P (snd (snd c))) ch -> P (Dir r ch))
  (t : tree) : P t :=
  match t with
  | Leaf k => HL k
  | Dir r ch => HD r ch
      ((fix go (l : list child) : Forall (fun c : child => P (snd (snd c))) l :=
          match l with
          | [] => Forall_nil _
          | c :: l' => Forall_cons c (match c return P (snd (snd c)) with (_, (_, sub)) => tree_ind' P HL HD sub end) (go l')
          end) ch)
  end.

Definition is_entry (r : result) : bool := negb (is_err r).
Definition entries_of (l : list result) : list result := filter is_entry l.

Lemma walk_all_dir p ch : walk_all p (Dir true ch) = flat_map (child_items p) ch.
Proof. reflexivity. Qed.

Lemma ents_app l1 l2 : ents (l1 ++ l2) = ents l1 ++ ents l2.
Proof. apply flat_map_app. Qed.

Lemma ents_map_REntry l : ents (map REntry l) = l.
Proof. induction l as [|e l IH]; [reflexivity|]. cbn [map]. change (e :: ents (map REntry l) = e :: l). now rewrite IH. Qed.

Lemma map_REntry_ents l : map REntry (ents l) = entries_of l.
Proof.
  induction l as [|[e|] l IH]; [reflexivity| |exact IH].
  change (REntry e :: map REntry (ents l) = REntry e :: entries_of l). now rewrite IH.
Qed.

(* The reference walk is exactly the entries among everything the workers send. *)
Lemma ents_walk_all t : forall p, ents (walk_all p t) = walk_spec p t.
Proof.
  induction t as [k|r ch IH] using tree_ind'; intros p; [reflexivity|]. destruct r; [|reflexivity].
  cbn [walk_spec walk_all]. induction IH as [|[n [sk sub]] ch Hsub _ IHch]; [reflexivity|].
  cbn [flat_map snd] in *. rewrite ents_app, IHch. f_equal.
  destruct sk; [reflexivity|]. destruct sub as [[| | |]|r' ch']; try reflexivity.
  change (ents (REntry (p ++ [n], KDir) :: ?l)) with ((p ++ [n], KDir) :: ents l). now rewrite Hsub.
Qed.

Lemma walk_spec_entries t p : map REntry (walk_spec p t) = entries_of (walk_all p t).
Proof. rewrite <- ents_walk_all. apply map_REntry_ents. Qed.

(* A listing that, with the errors and whatever else [rest] holds, makes up all the workers send
   is, with the entries of [rest], the reference walk. *)
Lemma listing_perm l rest t :
  Permutation (map REntry l ++ rest) (walk_all [] t) -> Permutation (l ++ ents rest) (walk_spec [] t).
Proof.
  intros H. apply (Permutation_flat_map (fun r => match r with REntry e => [e] | RErr => [] end)) in H.
  fold (ents (map REntry l ++ rest)) (ents (walk_all [] t)) in H.
  now rewrite ents_app, ents_map_REntry, ents_walk_all in H.
Qed.

Fixpoint sumf {A} (f : A -> nat) (l : list A) : nat :=
  match l with [] => 0 | x :: r => f x + sumf f r end.
(* the same sum with the function outside the fixpoint (so that it can be used in nested recursion) *)
Definition sumS {A} (f : A -> nat) : list A -> nat :=
  fix go (l : list A) : nat := match l with [] => 0 | x :: r => f x + go r end.
Lemma sumS_sumf {A} (f : A -> nat) l : sumS f l = sumf f l.
Proof. induction l as [|x l IH]; [reflexivity|]. cbn [sumf]. rewrite <- IH. reflexivity. Qed.
Lemma sumf_app {A} (f : A -> nat) l1 l2 : sumf f (l1 ++ l2) = sumf f l1 + sumf f l2.
Proof. induction l1 as [|x l1 IH]; cbn [sumf app]; lia. Qed.
Lemma sumf_repeat {A} (f : A -> nat) x n : sumf f (repeat x n) = n * f x.
Proof. induction n; cbn [repeat sumf]; lia. Qed.
Lemma sumf_Forall_le {A} (f g : A -> nat) l : Forall (fun x => f x <= g x) l -> sumf f l <= sumf g l.
Proof. induction 1; cbn [sumf]; lia. Qed.
Lemma sumf_le {A} (f g : A -> nat) l : (forall x, f x <= g x) -> sumf f l <= sumf g l.
Proof. intros H. apply sumf_Forall_le, Forall_forall. auto. Qed.
Lemma sumf_zero_forall {A} (f : A -> nat) l : sumf f l = 0 -> forall x, In x l -> f x = 0.
Proof. induction l as [|y l IH]; cbn [sumf]; intros H x Hin; [destruct Hin|].
  destruct Hin as [->|Hin]; [lia|apply IH; [lia|exact Hin]]. Qed.

Definition result_eq_dec : forall a b : result, {a = b} + {a <> b}.
Proof. repeat decide equality. Defined.
Definition occ (x : result) (l : list result) : nat := count_occ result_eq_dec l x.
Definition ind (a x : result) : nat := if result_eq_dec a x then 1 else 0.
Lemma occ_nil x : occ x [] = 0. Proof. reflexivity. Qed.
Lemma occ_cons x a l : occ x (a :: l) = ind a x + occ x l.
Proof. unfold occ, ind. cbn [count_occ]. destruct (result_eq_dec a x); lia. Qed.
Lemma occ_app x l1 l2 : occ x (l1 ++ l2) = occ x l1 + occ x l2.
Proof. apply count_occ_app. Qed.
Lemma occ_flat_map {A} x (f : A -> list result) l : occ x (flat_map f l) = sumf (fun a => occ x (f a)) l.
Proof. induction l as [|a l IH]; cbn [flat_map sumf]; [reflexivity|]. rewrite occ_app, IH. reflexivity. Qed.
Lemma occ_In x l : In x l <-> occ x l > 0.
Proof. apply count_occ_In. Qed.
Lemma occ_perm l1 l2 : Permutation l1 l2 <-> forall x, occ x l1 = occ x l2.
Proof. apply Permutation_count_occ. Qed.
Lemma ind_refl a : ind a a = 1.
Proof. unfold ind. destruct (result_eq_dec a a); [reflexivity|contradiction]. Qed.
Global Opaque occ.

Lemma has_error_In t : has_error t = true <-> In RErr (walk_all [] t).
Proof.
  unfold has_error. rewrite existsb_exists. split.
  - intros (r & Hin & Hr). destruct r; [discriminate|exact Hin].
  - intros H. exists RErr. split; [exact H|reflexivity].
Qed.

Lemma walk_all_unreadable p t : readable t = false -> walk_all p t = [RErr].
Proof. destruct t as [k|[|] ch]; cbn [readable walk_all]; intros H; try reflexivity; discriminate. Qed.

(* what a job / a worker will still send *)
Definition jfut (j : job) : list result := match j with JDir p t => walk_all p t | JDone => [] end.
Definition wfut (w : wpc) : list result :=
  match w with
  | WRead p t => walk_all p t
  | WIter p rest => flat_map (child_items p) rest
  | WAdd p n sub rest | WPush p n sub rest => walk_all (p ++ [n]) sub ++ flat_map (child_items p) rest
  | _ => []
  end.

Definition jdir (j : job) : nat := match j with JDir _ _ => 1 | JDone => 0 end.
Definition jdone (j : job) : nat := match j with JDir _ _ => 0 | JDone => 1 end.
Lemma jobs_len l : sumf jdir l + sumf jdone l = length l.
Proof. induction l as [|[p t|] l IH]; cbn [sumf jdir jdone length]; lia. Qed.

(* directory jobs a worker holds: its own, plus the child already counted but not yet queued *)
Definition inprog (w : wpc) : nat :=
  match w with WRead _ _ | WIter _ _ | WAdd _ _ _ _ => 1 | WPush _ _ _ _ => 2 | _ => 0 end.
Definition badw (w : wpc) : nat := match w with WBad => 1 | _ => 0 end.
Definition gonew (w : wpc) : nat := match w with WGone => 1 | _ => 0 end.

(* Case analysis on a worker's action; what a pop or the assertion says of the job queue is put to use at once. *)
Ltac wstep_cases H :=
  destruct H; cbn [jobs cnt rq leaked] in *; try match goal with E : jobs _ = _ |- _ => rewrite E in * end.

Section Proofs.
Variable N : nat.
Variable C : nat.

(* dw: Done messages a worker still owes (WAssert, WBcast) or has consumed (WExit).  latew is positive on exactly these
   workers - also on WBcast 0, which owes nothing - so its sum is 0 as long as nobody is past the last decrement. *)
Definition latew (w : wpc) : nat := match w with WAssert => S N | WBcast k => S k | WExit => 1 | _ => 0 end.
Definition dw (w : wpc) : nat := match w with WAssert => N | WBcast k => k | WExit => 1 | _ => 0 end.
Lemma dw_le_latew w : dw w <= latew w.
Proof. destruct w; cbn [dw latew]; lia. Qed.

(* The counter invariant:
     num_unfinished_jobs = queued Dir jobs + Dir jobs held by workers + abandoned (leaked) jobs;
   while it is positive no Done exists anywhere; once it is 0 exactly N Done messages exist
   (owed + queued + consumed); nobody has panicked. *)
Definition CInv (g : glob) (l : list wpc) : Prop :=
  cnt g = sumf jdir (jobs g) + sumf inprog l + leaked g /\
  (cnt g > 0 -> sumf jdone (jobs g) + sumf latew l = 0) /\
  (cnt g = 0 -> sumf jdone (jobs g) + sumf dw l = N) /\
  sumf badw l = 0.

Lemma cinv_wstep al g w g' w' a b :
  wstep N C al g w g' w' -> CInv g (a ++ w :: b) -> CInv g' (a ++ w' :: b).
Proof.
  intros Hw (HB & H1 & H2 & Hbad). unfold CInv.
  rewrite !sumf_app in *. cbn [sumf] in *.
  pose proof (sumf_le dw latew a dw_le_latew) as Ha.
  pose proof (sumf_le dw latew b dw_le_latew) as Hb.
  wstep_cases Hw; cbn [inprog latew dw badw] in *;
    rewrite ?sumf_app in *; cbn [sumf jdir jdone length] in *;
    try (repeat split; (assumption || lia)).
  - (* assertion failure is impossible *)
    exfalso. pose proof (jobs_len (jobs g)) as Hlen. destruct (jobs g) as [|j js]; [congruence|]. cbn [length] in Hlen. lia.
Qed.

(* conservation of results by an action of a worker (while the receiver is alive) *)
Lemma k_wstep g w g' w' : wstep N C true g w g' w' -> forall x,
  occ x (rq g') + sumf (fun j => occ x (jfut j)) (jobs g') + occ x (wfut w') =
  occ x (rq g) + sumf (fun j => occ x (jfut j)) (jobs g) + occ x (wfut w).
Proof.
  intros Hw x.
  wstep_cases Hw; cbn [wfut] in *;
    rewrite ?sumf_app; cbn [sumf jfut flat_map child_items];
    rewrite ?occ_app, ?occ_cons, ?occ_nil; try lia; try discriminate.
  (* read failure *)
  all: try match goal with H : readable _ = false |- _ => rewrite (walk_all_unreadable _ _ H), occ_cons, occ_nil; lia end.
  (* read ok *)
  rewrite walk_all_dir. reflexivity.
Qed.

(* I_L: a failed read_dir leaves its job counted for ever (no fetch_sub) and queues an RErr; the consumer stops at the
   first RErr it takes, so while it runs every leak still has its RErr in the queue - and the empty queue at end-of-list
   says that nothing leaked.  I_G: no send fails while the receiver exists.  I_K: conservation, counted per result -
   received + queued + what jobs and workers will still send is all that the reference walk sends. *)
Record Inv (root : tree) (s : state) : Prop := mkInv {
  I_len : length (ws s) = N;
  I_C : CInv (gl s) (ws s);
  I_L : cons s = CRun -> leaked (gl s) <= occ RErr (rq (gl s));
  I_G : alive (cons s) = true -> sumf gonew (ws s) = 0;
  I_E : cons s = CEos -> forallb exited (ws s) = true /\ rq (gl s) = [];
  I_K : cons s = CRun \/ cons s = CEos -> forall x,
        occ x (map REntry (recvd s)) + occ x (rq (gl s)) +
        sumf (fun j => occ x (jfut j)) (jobs (gl s)) + sumf (fun w => occ x (wfut w)) (ws s) =
        occ x (walk_all [] root);
  (* what has been received is part of the reference listing, also after a failure *)
  I_R : exists rest, Permutation (map REntry (recvd s) ++ rest) (walk_all [] root);
  (* the consumer fails only on an error that the tree has *)
  I_F : cons s = CErr \/ cons s = CDropped -> In RErr (walk_all [] root)
}.

Lemma inv_init root : Inv root (init N root).
Proof.
  unfold init. constructor; cbn [gl ws cons recvd jobs cnt rq leaked map app]; try discriminate.
  - apply repeat_length.
  - unfold CInv; cbn [jobs cnt leaked sumf jdir jdone]. rewrite !sumf_repeat. cbn [inprog latew dw badw]. repeat split; lia.
  - intros _. lia.
  - intros _. now rewrite sumf_repeat.
  - intros _ x. cbn [sumf jfut]. rewrite sumf_repeat, occ_nil. cbn [wfut]. rewrite occ_nil. lia.
  - exists (walk_all [] root). reflexivity.
  - intros [?|?]; discriminate.
Qed.

Lemma exited_no_step al g w g' w' : wstep N C al g w g' w' -> exited w = false.
Proof. destruct 1; reflexivity. Qed.

Lemma wstep_leak g w g' w' : wstep N C true g w g' w' ->
  leaked g <= occ RErr (rq g) -> leaked g' <= occ RErr (rq g').
Proof.
  intros Hw HL. destruct Hw; cbn [rq leaked]; rewrite ?occ_app, ?occ_cons, ?occ_nil, ?ind_refl; try lia; discriminate.
Qed.

Lemma wstep_gone g w g' w' : wstep N C true g w g' w' -> gonew w' = 0.
Proof. intros Hw. destruct Hw; cbn [gonew]; try lia; discriminate. Qed.

(* The consumer's own steps leave jobs, counter and workers alone, so CInv (which does not read the
   result queue) carries over as it is, and most fields speak of another consumer state or hold by
   computation (an entry taken from the queue is not an error); four are left. *)
Lemma inv_step root s s' : Inv root s -> step N C s s' -> Inv root s'.
Proof.
  intros [Hlen HC HL HG HE HK HR HF] Hs.
  destruct Hs as [s a w b g' w' Hws Hw|s e r Hc Hrq|s r Hc Hrq|s Hc|s Hc Hrq Hex];
    [|rewrite Hc, ?Hrq in *; constructor; cbn [gl ws cons recvd jobs cnt rq leaked]; auto; try discriminate;
      try (intros [?|?]; discriminate)..].
  - (* a worker acts *)
    rewrite Hws in *. constructor; cbn [gl ws cons recvd]; [| | | | | |exact HR|exact HF].
    + rewrite app_length in *. exact Hlen.
    + eapply cinv_wstep; eauto.
    + intros Hc. rewrite Hc in Hw. eapply wstep_leak; eauto.
    + intros Hal. rewrite Hal in Hw. specialize (HG Hal). rewrite sumf_app in *. cbn [sumf] in *.
      pose proof (wstep_gone _ _ _ _ Hw). lia.
    + intros Hc. destruct (HE Hc) as [Hex _]. rewrite forallb_app in Hex. cbn [forallb] in Hex.
      rewrite (exited_no_step _ _ _ _ _ Hw), andb_false_r in Hex. discriminate.
    + intros Hc x. specialize (HK Hc x).
      assert (Hal : alive (cons s) = true) by (destruct Hc as [-> | ->]; reflexivity).
      rewrite Hal in Hw. pose proof (k_wstep _ _ _ _ Hw x) as Hk.
      rewrite sumf_app in *. cbn [sumf] in *. lia.
  - (* the consumer takes an entry: it moves from the queue to what has been received *)
    intros _ x. specialize (HK (or_introl eq_refl) x).
    rewrite map_app, occ_app. cbn [map]. rewrite occ_cons in *. rewrite occ_nil. lia.
  - exists (r ++ flat_map jfut (jobs (gl s)) ++ flat_map wfut (ws s)). apply occ_perm. intros x.
    specialize (HK (or_introl eq_refl) x).
    rewrite map_app, !occ_app, !occ_flat_map. cbn [map]. rewrite occ_cons in *. rewrite occ_nil. lia.
  - (* the consumer takes an error: it was sent, so the tree has it *)
    intros _. apply occ_In. specialize (HK (or_introl eq_refl) RErr). rewrite occ_cons, ind_refl in HK. lia.
  - (* end of stream *) intros _. rewrite Hrq. apply HK. auto.
Qed.

Lemma reach_inv root s : reach N C root s -> Inv root s.
Proof. induction 1; [apply inv_init|eapply inv_step; eauto]. Qed.

Lemma failed_has_error root s : reach N C root s -> cons s = CErr \/ cons s = CDropped -> has_error root = true.
Proof. intros Hr Hc. apply has_error_In, (I_F _ _ (reach_inv _ _ Hr)), Hc. Qed.

End Proofs.

Section Measure.
Variable N : nat.
Variable C : nat.

(* The measure.  A queued result weighs 1 and a queued job 1 more than its walk, so sending and queueing pay for
   themselves.  rd t: what reading t costs - 2 for a failed read (the step and the RErr it queues).  cw: one child's share -
   1 to skip it, 2 for a leaf (the step and its entry), 5 + rd sub for a folder (its entry, the three steps that send it,
   count the job and queue it, and the job).  The 2N+3 that ends a child list pays for the decrement and, should it be the
   last, for the assertion and N broadcasts, each of which queues a Done job of weight 1. *)
Definition cw (rd : tree -> nat) (c : child) : nat :=
  match c with (_, (sk, sub)) => if sk then 1 else match sub with Leaf _ => 2 | Dir _ _ => 5 + rd sub end end.
Fixpoint rd (t : tree) : nat :=
  match t with
  | Dir true ch =>
      1 + (sumS (fun c : child => match c with (_, (sk, sub)) =>
                 if sk then 1 else match sub with Leaf _ => 2 | Dir _ _ => 5 + rd sub end end) ch + (2 * N + 3))
  | _ => 2
  end.
Definition it (rest : list child) : nat := sumf (cw rd) rest + (2 * N + 3).
Lemma rd_dir ch : rd (Dir true ch) = 1 + it ch.
Proof. unfold it. cbn [rd]. rewrite sumS_sumf. reflexivity. Qed.
Lemma rd_unreadable t : readable t = false -> rd t = 2.
Proof. destruct t as [k|[|] ch]; cbn [readable rd]; intros H; try reflexivity; discriminate. Qed.

Definition muw (w : wpc) : nat :=
  match w with
  | WRead _ t => rd t
  | WIter _ rest => it rest
  | WAdd _ _ sub rest => 3 + rd sub + it rest
  | WPush _ _ sub rest => 2 + rd sub + it rest
  | WAssert => 2 * N + 2
  | WBcast k => 2 * k + 1
  | _ => 0
  end.
Definition muj (j : job) : nat := match j with JDir _ t => 1 + rd t | JDone => 1 end.
Definition muc (c : cstate) : nat := match c with CRun => 2 | CErr => 1 | _ => 0 end.
Definition mu (s : state) : nat :=
  sumf muj (jobs (gl s)) + sumf muw (ws s) + length (rq (gl s)) + muc (cons s).

Lemma leaf_items_len q k : length (leaf_items q k) = 1.
Proof. destruct k; reflexivity. Qed.

Lemma wstep_decreases al g w g' w' : wstep N C al g w g' w' ->
  sumf muj (jobs g') + length (rq g') + muw w' < sumf muj (jobs g) + length (rq g) + muw w.
Proof.
  intros Hw.
  wstep_cases Hw; cbn [muw] in *;
    rewrite ?sumf_app, ?app_length, ?leaf_items_len, ?rd_dir; unfold it; cbn [sumf muj cw length];
    try match goal with H : readable _ = false |- _ => rewrite (rd_unreadable _ H) end;
    try lia.
Qed.

Lemma step_decreases s s' : step N C s s' -> mu s' < mu s.
Proof.
  intros Hs. unfold mu.
  destruct Hs as [s a w b g' w' Hws Hw|s e r Hc Hrq|s r Hc Hrq|s Hc|s Hc Hrq Hex];
    cbn [gl ws cons recvd jobs cnt rq leaked].
  - rewrite Hws, !sumf_app. cbn [sumf]. pose proof (wstep_decreases _ _ _ _ _ Hw). lia.
  - rewrite Hrq, Hc. cbn [length muc]. lia.
  - rewrite Hrq, Hc. cbn [length muc]. lia.
  - rewrite Hc. cbn [length muc]. lia.
  - rewrite Hc. cbn [muc]. lia.
Qed.

Lemma terminates s : Acc (fun a b => step N C b a) s.
Proof. apply (well_founded_lt_compat _ mu). intros a b H. apply step_decreases. exact H. Qed.

End Measure.

(* Workers that have all exited, none through a failed send or a panic, have all got their Done. *)
Lemma all_exited l : forallb exited l = true -> sumf gonew l = 0 -> sumf badw l = 0 -> l = repeat WExit (length l).
Proof.
  induction l as [|w l IH]; cbn [forallb sumf length repeat]; intros He Hg Hb; [reflexivity|].
  apply andb_true_iff in He as [Hw He]. rewrite <- IH by (assumption || lia).
  destruct w; cbn [exited gonew badw] in *; try discriminate; try lia. reflexivity.
Qed.

Section Consequences.
Variable N : nat.
Variable C : nat.
Hypothesis HN : N >= 1.

(* Nobody panics: the assertion never fails and the counter never wraps. *)
Lemma no_panic root s : reach N C root s -> forall w, In w (ws s) -> w <> WBad.
Proof.
  intros Hr w Hin ->. destruct (reach_inv _ _ _ _ Hr) as [_ (_ & _ & _ & Hb) _ _ _ _ _ _].
  pose proof (sumf_zero_forall _ _ Hb _ Hin) as H. discriminate.
Qed.

(* At end-of-stream the consumer has received exactly what the reference walk lists. *)
Lemma eos_complete root s : reach N C root s -> cons s = CEos ->
  Permutation (map REntry (recvd s)) (walk_all [] root) /\
  ws s = repeat WExit N /\ jobs (gl s) = [] /\ rq (gl s) = [] /\ cnt (gl s) = 0.
Proof.
  intros Hr Hc. destruct (reach_inv _ _ _ _ Hr) as [Hlen (HB & H1 & H2 & Hb) _ HG HE HK _ _].
  destruct (HE Hc) as [Hex Hrq]. specialize (HK (or_intror Hc)).
  assert (Hal : alive (cons s) = true) by (rewrite Hc; reflexivity).
  pose proof (all_exited _ Hex (HG Hal) Hb) as Hw. rewrite Hlen in Hw.
  rewrite Hw, ?sumf_repeat in *. cbn [latew dw inprog] in *.
  (* N >= 1 workers hold a Done each, so the counter is 0, and then these are all the Done there are *)
  assert (Hcnt : cnt (gl s) = 0) by lia. specialize (H2 Hcnt).
  assert (Hj : jobs (gl s) = []) by (destruct (jobs (gl s)) as [|[|] js]; [reflexivity|cbn [sumf jdir jdone] in *; lia..]).
  repeat split; auto. apply occ_perm. intros x. specialize (HK x).
  rewrite Hrq, Hj, sumf_repeat in HK. cbn [sumf wfut] in HK. rewrite occ_nil in HK. lia.
Qed.

Lemma eos_exactly_once root s : reach N C root s -> cons s = CEos ->
  has_error root = false /\ Permutation (recvd s) (walk_spec [] root).
Proof.
  intros Hr Hc. destruct (eos_complete _ _ Hr Hc) as (Hp & _). split.
  - destruct (has_error root) eqn:E; [|reflexivity]. apply has_error_In in E.
    apply (Permutation_in _ (Permutation_sym Hp)), in_map_iff in E as (e & E & _). discriminate E.
  - rewrite <- (app_nil_r (map _ _)) in Hp. apply listing_perm in Hp. now rewrite app_nil_r in Hp.
Qed.

(* A failing read_dir (or entry) never ends in an end-of-list. *)
Lemma error_never_eos root s : reach N C root s -> has_error root = true -> cons s <> CEos.
Proof. intros Hr He Hc. destruct (eos_exactly_once _ _ Hr Hc) as [H _]. congruence. Qed.

Definition blocked (g : glob) (w : wpc) : Prop := exited w = true \/ (w = WIdle /\ jobs g = []).
(* final: end-of-list delivered, or the listing failed and every worker has exited or waits for
   ever on the empty job queue (the leaked workers of the read_dir error path) *)
Definition final (s : state) : Prop :=
  cons s = CEos \/ (cons s = CDropped /\ Forall (blocked (gl s)) (ws s)).

Lemma worker_progress al g w : (al = true -> length (rq g) < C) ->
  blocked g w \/ exists g' w', wstep N C al g w g' w'.
Proof.
  intros Hroom. unfold blocked.
  destruct w as [|p t|p rest|p n sub rest|p n sub rest| |k| | |]; cbn [exited]; auto.
  - destruct (jobs g) as [|[q t|] js] eqn:Hj; [left; right; auto| |]; right; do 2 eexists.
    + eapply ws_pop_dir; eauto.
    + eapply ws_pop_done; eauto.
  - right. destruct (readable t) eqn:Hr.
    + destruct t as [k|[|] ch]; try discriminate. do 2 eexists. apply ws_read_ok.
    + destruct al; do 2 eexists; [eapply ws_read_fail|eapply ws_read_fail_gone]; eauto.
  - right. destruct rest as [|[n [[|] sub]] rest].
    + destruct (cnt g) as [|[|c]] eqn:Hc; do 2 eexists; [eapply ws_dec_wrap|eapply ws_dec_last|eapply ws_dec_more]; eauto.
    + do 2 eexists. apply ws_skip.
    + destruct al; [|do 2 eexists; eapply ws_send_gone; eauto].
      destruct sub as [k|r ch]; do 2 eexists; [eapply ws_leaf|eapply ws_dir]; eauto.
  - right. do 2 eexists. apply ws_add.
  - right. do 2 eexists. apply ws_push.
  - right. destruct (jobs g) as [|j js] eqn:Hj; do 2 eexists; [eapply ws_assert_ok|eapply ws_assert_fail]; eauto. congruence.
  - right. destruct k; do 2 eexists; [apply ws_bcast_end|apply ws_bcast].
Qed.

Lemma workers_progress al g l : (al = true -> length (rq g) < C) ->
  Forall (blocked g) l \/ exists a w b g' w', l = a ++ w :: b /\ wstep N C al g w g' w'.
Proof.
  intros Hroom. induction l as [|w l IH]; [left; constructor|].
  destruct (worker_progress al g w Hroom) as [Hb|(g' & w' & Hw)].
  - destruct IH as [IH|(a & w0 & b & g' & w' & -> & Hw)].
    + left. constructor; assumption.
    + right. exists (w :: a), w0, b, g', w'. split; [reflexivity|exact Hw].
  - right. exists [], w, l, g', w'. split; [reflexivity|exact Hw].
Qed.

Lemma blocked_cases g w : blocked g w -> inprog w = 0 /\ dw N w <= 1 /\ (dw N w = 1 -> exited w = true).
Proof. intros [H|[-> _]]; [destruct w; try discriminate H|]; cbn; repeat split; auto; discriminate. Qed.

Lemma blocked_sums g l : Forall (blocked g) l ->
  sumf inprog l = 0 /\ sumf (dw N) l <= length l /\ (sumf (dw N) l = length l -> forallb exited l = true).
Proof.
  induction 1 as [|w l Hw _ (I1 & I2 & I3)]; cbn [sumf length forallb]; [auto|].
  destruct (blocked_cases g w Hw) as (B1 & B2 & B3). repeat split; [lia..|].
  intros Hs. rewrite B3, I3 by lia. reflexivity.
Qed.

Lemma blocked_no_step al g w g' w' : blocked g w -> ~ wstep N C al g w g' w'.
Proof. intros [H|[-> Hj]] Hw; [apply exited_no_step in Hw | inversion Hw]; congruence. Qed.

(* In a final state every worker is blocked (at the end of the list they have all exited), and the
   consumer has nothing left to do. *)
Lemma final_no_step root s s' : reach N C root s -> final s -> ~ step N C s s'.
Proof.
  intros Hr Hf Hs.
  assert (Hbl : (cons s = CEos \/ cons s = CDropped) /\ Forall (blocked (gl s)) (ws s)).
  { destruct Hf as [Hc|[Hc Hbl]]; [|auto]. destruct (eos_complete _ _ Hr Hc) as (_ & -> & _).
    split; [auto|]. apply Forall_forall. intros w Hin. apply repeat_spec in Hin as ->. left; reflexivity. }
  destruct Hbl as [Hc Hbl].
  destruct Hs as [s a w b g' w' Hws Hst|s e r Hc' Hrq|s r Hc' Hrq|s Hc'|s Hc' Hrq Hex]; try (destruct Hc; congruence).
  rewrite Hws in Hbl. apply Forall_app in Hbl as [_ Hbl]. inversion Hbl; subst. eapply blocked_no_step; eauto.
Qed.

Hypothesis HC : C >= 1.

Lemma no_stuck root s : reach N C root s -> final s \/ exists s', step N C s s'.
Proof.
  intros Hr. destruct (reach_inv _ _ _ _ Hr) as [Hlen (HB & H1 & H2 & Hb) HL HG HE HK _ _].
  unfold final. destruct (cons s) eqn:Hc.
  - (* CRun *) right.
    destruct (rq (gl s)) as [|[e|] r] eqn:Hrq.
    + destruct (workers_progress true (gl s) (ws s)) as [Hbl|(a & w & b & g' & w' & Hws & Hw)].
      * intros _. rewrite Hrq. cbn [length]. lia.
      * (* everybody waits: then the counter is 0, all N Done were consumed, the stream ends *)
        eexists. apply st_eos; auto.
        specialize (HL eq_refl). rewrite occ_nil in HL.
        destruct (blocked_sums _ _ Hbl) as (Hip & _ & Hex).
        destruct (jobs (gl s)) as [|j js] eqn:Hj.
        -- cbn [sumf] in *. apply Hex. lia.
        -- (* a queued job: an idle worker would not be blocked *)
           apply forallb_forall. intros w Hin. rewrite Forall_forall in Hbl.
           destruct (Hbl w Hin) as [Hw|[_ Hw]]; [exact Hw | congruence].
      * eexists. eapply st_worker; eauto. rewrite Hc. exact Hw.
    + eexists. eapply st_pop_ok; eauto.
    + eexists. eapply st_pop_err; eauto.
  - (* CErr *) right. eexists. apply st_drop. exact Hc.
  - (* CDropped *)
    destruct (workers_progress false (gl s) (ws s)) as [Hbl|(a & w & b & g' & w' & Hws & Hw)].
    + discriminate.
    + left. right. auto.
    + right. eexists. eapply st_worker; eauto. rewrite Hc. exact Hw.
  - left. left. reflexivity.
Qed.

(* An execution that cannot continue has delivered end-of-list after the complete listing
   (no error in the tree) or has failed (some error in the tree). *)
Lemma stuck_outcome root s : reach N C root s -> (forall s', ~ step N C s s') ->
  (has_error root = false /\ cons s = CEos /\ Permutation (recvd s) (walk_spec [] root) /\ ws s = repeat WExit N) \/
  (has_error root = true /\ cons s = CDropped /\ Forall (blocked (gl s)) (ws s)).
Proof.
  intros Hr Hst. destruct (no_stuck _ _ Hr) as [[Hc|[Hc Hbl]]|(s' & Hs)]; [| |exfalso; eapply Hst; eauto].
  - left. destruct (eos_exactly_once _ _ Hr Hc) as [He Hp]. destruct (eos_complete _ _ Hr Hc) as (_ & Hw & _). auto.
  - right. rewrite (failed_has_error _ _ _ _ Hr) by auto. auto.
Qed.

(* Non-vacuity, for every tree: some execution exists that runs until nothing is enabled
   (by well-founded induction on the measure, using no_stuck). *)
Lemma run_to_final root s : reach N C root s ->
  exists s', reach N C root s' /\ final s' /\ (forall s'', ~ step N C s' s'').
Proof.
  intros Hr. induction (terminates N C s) as [s _ IH].
  destruct (no_stuck _ _ Hr) as [Hf|(s' & Hs)].
  - exists s. repeat split; auto. intros s''. exact (final_no_step _ _ _ Hr Hf).
  - apply (IH s' Hs). eapply r_step; eauto.
Qed.

End Consequences.

(* Without a read error in the tree the consumer never fails (with any number of workers). *)
Lemma noerror_never_fails N C : N >= 1 -> forall root s,
  reach N C root s -> has_error root = false -> cons s = CRun \/ cons s = CEos.
Proof.
  intros _ root s Hr He. pose proof (failed_has_error _ _ _ _ Hr) as HF.
  destruct (cons s); auto; rewrite HF in He by auto; discriminate He.
Qed.

Section Structure.
Variable N : nat.
Variable C : nat.
Variable root : tree.

(* jok, wok, rok: the path that a job, a worker or a result carries is reached from the root through readable, included
   folders only (dir_at, included); a worker in a child list holds a suffix of that folder's children. *)
Definition jok (j : job) : Prop := match j with JDir p t => dir_at root p t | JDone => True end.
Definition wok (w : wpc) : Prop :=
  match w with
  | WRead p t => dir_at root p t
  | WIter p rest => exists ch pre, dir_at root p (Dir true ch) /\ ch = pre ++ rest
  | WAdd p n sub rest | WPush p n sub rest =>
      exists ch pre, dir_at root p (Dir true ch) /\ ch = pre ++ (n, (false, sub)) :: rest /\ is_dir sub = true
  | _ => True
  end.
Definition rok (r : result) : Prop := match r with REntry e => included root e | RErr => True end.

(* The entry at [n] in a directory reached properly is included. *)
Lemma child_included p pre n sub rest k :
  dir_at root p (Dir true (pre ++ (n, (false, sub)) :: rest)) -> kind_of_tree sub = Some k -> included root (p ++ [n], k).
Proof. intros Hd Hk. exists p, (pre ++ (n, (false, sub)) :: rest), n, sub. repeat split; auto. apply in_elt. Qed.

Lemma wok_iter_next p c rest : (exists ch pre', dir_at root p (Dir true ch) /\ ch = pre' ++ c :: rest) ->
  wok (WIter p rest).
Proof. intros (ch & pre' & Hd & ->). exists (pre' ++ c :: rest), (pre' ++ [c]). now rewrite <- app_assoc. Qed.

Lemma s_wstep al g w g' w' : wstep N C al g w g' w' ->
  wok w -> Forall jok (jobs g) -> Forall rok (rq g) ->
  wok w' /\ Forall jok (jobs g') /\ Forall rok (rq g').
Proof.
  intros Hw Hwok Hj Hr.
  wstep_cases Hw; cbn [wok] in Hwok; rewrite ?Forall_app; repeat split; eauto using wok_iter_next; try exact I.
  - (* a job is taken *) now inversion Hj.
  - now inversion Hj.
  - now inversion Hj.
  - (* read_dir succeeds *) exists ch, []. auto.
  - (* read_dir fails *) repeat constructor.
  - (* a leaf *) destruct Hwok as (ch & pre & Hd & ->). destruct k; repeat constructor; eapply child_included; eauto.
  - (* a folder *) destruct Hwok as (ch0 & pre & Hd & ->). cbn [wok]. eauto.
  - destruct Hwok as (ch0 & pre & Hd & ->). repeat constructor. eapply child_included; eauto.
  - (* its job is queued *) destruct Hwok as (ch & pre & Hd & -> & Hdir). eauto using wok_iter_next.
  - destruct Hwok as (ch & pre & Hd & -> & Hdir). repeat constructor. eapply da_child; eauto. apply in_elt.
Qed.

Definition SInv (s : state) : Prop :=
  Forall jok (jobs (gl s)) /\ Forall wok (ws s) /\ Forall rok (rq (gl s)) /\ Forall (included root) (recvd s).

Lemma sinv_init : SInv (init N root).
Proof.
  unfold SInv, init; cbn [gl ws jobs rq recvd]. repeat split; auto.
  - constructor; [apply da_root|constructor].
  - apply Forall_forall. intros w Hw. apply repeat_spec in Hw as ->. exact I.
Qed.

Lemma sinv_step s s' : SInv s -> step N C s s' -> SInv s'.
Proof.
  intros (Hj & Hw & Hr & Hrec) Hs. unfold SInv.
  destruct Hs as [s a w b g' w' Hws Hst|s e r Hc Hrq|s r Hc Hrq|s Hc|s Hc Hrq Hex]; cbn [gl ws cons recvd jobs rq].
  - rewrite Hws in Hw. apply Forall_app in Hw as [Ha Hwb]. inversion Hwb as [|? ? Hw0 Hb]; subst.
    destruct (s_wstep _ _ _ _ _ Hst Hw0 Hj Hr) as (W & J & R). repeat split; auto.
    apply Forall_app; split; auto.
  - rewrite Hrq in Hr. inversion Hr; subst. repeat split; auto. apply Forall_app; split; auto.
  - rewrite Hrq in Hr. inversion Hr; subst. repeat split; auto.
  - repeat split; auto.
  - repeat split; auto.
Qed.

Lemma reach_sinv s : reach N C root s -> SInv s.
Proof. induction 1; [apply sinv_init|eapply sinv_step; eauto]. Qed.

(* whatever is a job or a result lies below directories that are themselves reached without
   entering an excluded folder or a link: [dir_at] is closed under prefixes *)
Lemma dir_at_prefix p t : dir_at root p t -> forall q r, p = q ++ r -> r <> [] ->
  exists ch, dir_at root q (Dir true ch).
Proof.
  induction 1 as [|p ch n sub Hd IH Hin Hdir]; intros q r E Hr.
  - destruct q; destruct r; try discriminate. contradiction.
  - destruct r as [|x r] using rev_ind; [contradiction|]. clear IHr.
    rewrite app_assoc in E. apply app_inj_tail in E as [E _]. subst p.
    destruct r as [|y r]; [rewrite app_nil_r in Hd; eauto|].
    eapply IH; [reflexivity|discriminate].
Qed.

End Structure.

Lemma parent_first_snoc l q k : parent_first l ->
  (forall p n, q = p ++ [n] -> p <> [] -> In (p, KDir) l) -> parent_first (l ++ [(q, k)]).
Proof.
  intros HP Hq a b p n k0 E Hp.
  destruct b as [|y b] using rev_ind.
  - apply app_inj_tail in E as [-> E]. injection E as -> ->. eapply Hq; eauto.
  - clear IHb. rewrite app_comm_cons, app_assoc in E. apply app_inj_tail in E as [-> _]. eapply HP; eauto.
Qed.

Lemma parent_first_prefix l1 l2 : parent_first (l1 ++ l2) -> parent_first l1.
Proof. intros HP a b p n k E Hp. eapply (HP a (b ++ l2)); eauto. rewrite E, <- app_assoc. reflexivity. Qed.

Lemma parent_first_ancestors l : parent_first l -> ancestors_first l.
Proof.
  intros HP a b q r. revert a b. induction r as [|n r IH] using rev_ind; intros a b k E Hq Hr; [contradiction|].
  rewrite app_assoc in E. pose proof (HP a b (q ++ r) n k E) as Hin.
  assert (Hne : q ++ r <> []) by (destruct q; [contradiction|discriminate]).
  specialize (Hin Hne). destruct r as [|m r]; [rewrite app_nil_r in Hin; exact Hin|].
  apply in_split in Hin as (a1 & a2 & ->).
  assert (In (q, KDir) a1).
  { eapply (IH a1 (a2 ++ (((q ++ m :: r) ++ [n]), k) :: b) KDir); [|exact Hq|discriminate].
    rewrite E, <- app_assoc. reflexivity. }
  apply in_or_app. auto.
Qed.

Section Order.
Variable N : nat.
Variable C : nat.

(* ann l p: the folder entry of p has been sent (is in l), or p is the root; jann, wann: so for the path a job or a
   worker holds, and for the child folder a worker is about to queue *)
Definition ann (l : list entry) (p : path) : Prop := p = [] \/ In (p, KDir) l.
Definition jann (l : list entry) (j : job) : Prop := match j with JDir p _ => ann l p | JDone => True end.
Definition wann (l : list entry) (w : wpc) : Prop :=
  match w with
  | WRead p _ | WIter p _ => ann l p
  | WAdd p n _ _ | WPush p n _ _ => ann l p /\ ann l (p ++ [n])
  | _ => True
  end.
Lemma ann_mono l x p : ann l p -> ann (l ++ x) p.
Proof. intros [H|H]; [left; exact H|right; apply in_or_app; auto]. Qed.
Lemma jann_mono l x j : jann l j -> jann (l ++ x) j.
Proof. destruct j; cbn [jann]; auto using ann_mono. Qed.
Lemma wann_mono l x w : wann l w -> wann (l ++ x) w.
Proof. destruct w; cbn [wann]; auto using ann_mono. intros []; auto using ann_mono. intros []; auto using ann_mono. Qed.

Lemma parent_first_send l p n k : parent_first l -> ann l p -> parent_first (l ++ [(p ++ [n], k)]).
Proof.
  intros HP Ha. apply parent_first_snoc; [exact HP|].
  intros p' n' E Hp'. apply app_inj_tail in E as [-> _]. destruct Ha; [contradiction|assumption].
Qed.

(* A worker's action keeps the order: a job or a worker only ever holds a path whose folder entry has
   been sent, an entry is sent by the worker that holds its folder, and a folder's entry goes out
   before the job for it is counted and queued. *)
Lemma p_wstep g w g' w' l0 : wstep N C true g w g' w' ->
  parent_first (l0 ++ ents (rq g)) -> wann (l0 ++ ents (rq g)) w -> Forall (jann (l0 ++ ents (rq g))) (jobs g) ->
  exists x, l0 ++ ents (rq g') = (l0 ++ ents (rq g)) ++ x /\
    parent_first (l0 ++ ents (rq g')) /\ wann (l0 ++ ents (rq g')) w' /\ Forall (jann (l0 ++ ents (rq g'))) (jobs g').
Proof.
  intros Hw HP Hwa Hja.
  assert (Hmono : forall x, Forall (jann ((l0 ++ ents (rq g)) ++ x)) (jobs g)).
  { intros x. eapply Forall_impl; [|exact Hja]. intros j. apply jann_mono. }
  wstep_cases Hw; cbn [wann] in *; try discriminate; rewrite ?ents_app, ?app_assoc;
    try (exists []; rewrite app_nil_r; rewrite ?Forall_app; repeat split; auto; fail).
  - (* a job is taken *) exists []. rewrite app_nil_r. now inversion Hja.
  - exists []. rewrite app_nil_r. now inversion Hja.
  - (* read_dir fails *) exists []. cbn [ents flat_map]. rewrite !app_nil_r. auto.
  - (* a leaf *)
    destruct k; cbn [leaf_items ents flat_map]; rewrite ?app_nil_r;
      try (eexists; split; [reflexivity|]; repeat split; [apply parent_first_send; auto|apply ann_mono; auto|apply Hmono]).
    exists []. rewrite app_nil_r. auto.
  - (* a folder *) cbn [ents flat_map]. rewrite ?app_nil_r.
    eexists; split; [reflexivity|]. repeat split; [apply parent_first_send; auto|apply ann_mono; auto| |apply Hmono].
    right. apply in_elt.
  - (* its job is counted, then queued *) exists []. rewrite app_nil_r. destruct Hwa. auto.
  - exists []. rewrite app_nil_r, Forall_app. destruct Hwa. repeat split; auto.
Qed.

Lemma wstep_dead_rq g w g' w' : wstep N C false g w g' w' -> rq g' = rq g.
Proof. destruct 1; cbn [rq]; try reflexivity; discriminate. Qed.

Definition sentE (s : state) : list entry := recvd s ++ ents (rq (gl s)).
Definition PInv (s : state) : Prop :=
  parent_first (sentE s) /\
  (alive (cons s) = true -> Forall (jann (sentE s)) (jobs (gl s)) /\ Forall (wann (sentE s)) (ws s)).

Lemma pinv_init root : PInv (init N root).
Proof.
  unfold PInv, sentE, init; cbn [gl ws cons recvd jobs rq ents flat_map app]. split.
  - intros a b p n k E. destruct a; discriminate.
  - intros _. split; [constructor; [left; reflexivity|constructor]|].
    apply Forall_forall. intros w Hw. apply repeat_spec in Hw as ->. exact I.
Qed.

Lemma pinv_step s s' : PInv s -> step N C s s' -> PInv s'.
Proof.
  intros [HP HA] Hs. unfold PInv, sentE in *.
  destruct Hs as [s a w b g' w' Hws Hst|s e r Hc Hrq|s r Hc Hrq|s Hc|s Hc Hrq Hex]; cbn [gl ws cons recvd jobs rq].
  - destruct (alive (cons s)) eqn:Hal.
    + destruct (HA eq_refl) as [HJ HW]. rewrite Hws in HW.
      apply Forall_app in HW as [Ha Hwb]. inversion Hwb as [|? ? Hw0 Hb]; subst.
      destruct (p_wstep _ _ _ _ _ Hst HP Hw0 HJ) as (x & E & P' & W' & J').
      split; [exact P'|]. intros _. split; [exact J'|].
      rewrite E. apply Forall_app; split; [|constructor; [rewrite <- E; exact W'|]];
        (eapply Forall_impl; [|eassumption]); intros w1; apply wann_mono.
    + rewrite (wstep_dead_rq _ _ _ _ Hst). split; [exact HP|discriminate].
  - rewrite Hrq in *. cbn [ents flat_map app] in *. rewrite <- app_assoc. cbn [app].
    split; [exact HP|]. intros _. apply HA. rewrite Hc. reflexivity.
  - rewrite Hrq in *. cbn [ents flat_map app] in *.
    split; [exact HP|]. intros _. apply HA. rewrite Hc. reflexivity.
  - cbn [ents flat_map]. rewrite app_nil_r. split; [eapply parent_first_prefix; eauto|discriminate].
  - split; [exact HP|]. intros _. apply HA. rewrite Hc. reflexivity.
Qed.

Lemma reach_pinv root s : reach N C root s -> PInv s.
Proof. induction 1; [apply pinv_init|eapply pinv_step; eauto]. Qed.

Lemma reach_parents_first root s : reach N C root s -> parent_first (recvd s).
Proof. intros Hr. destruct (reach_pinv _ _ Hr) as [HP _]. eapply parent_first_prefix, HP. Qed.

Lemma reach_ancestors_first root s : reach N C root s -> ancestors_first (recvd s).
Proof. intros Hr. eapply parent_first_ancestors, reach_parents_first, Hr. Qed.

End Order.
