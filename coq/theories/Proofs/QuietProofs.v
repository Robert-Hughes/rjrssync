(* When does a destination command log nothing?  Path resolution stays inside the tree as long as no
   strict prefix of the path is a link to a folder; in particular when every strict prefix is a folder
   (quiet_at), which is what the delete phase keeps true: children are deleted before their parents. *)
From RJ Require Import Base.Prelude Model.Core Model.Fs Model.Sync Proofs.FsProofs Proofs.PathLemmas Proofs.BlockProofs.

Lemma check_above_through_at f : forall rest pre q,
  check_above f pre rest = PRThrough q ->
  exists k t, k < length rest /\ q = pre ++ firstn k rest /\ fget f q = Some (NLink t SKFolder).
Proof.
  induction rest as [|c rest IH]; intros pre q H; cbn [check_above] in H; [discriminate|].
  destruct rest as [|c1 rest].
  - destruct (fget f pre) as [[m d| |t [| |]]|] eqn:E; inversion H; subst.
    exists 0, t. cbn [firstn length]. rewrite app_nil_r. split; [lia|]. split; [reflexivity|exact E].
  - destruct (fget f pre) as [[m d| |t [| |]]|] eqn:E; try discriminate.
    + destruct (IH _ _ H) as (k & t & Hk & -> & Hf). exists (S k), t. cbn [length firstn] in *. split; [lia|].
      split; [rewrite <- app_assoc; reflexivity|exact Hf].
    + inversion H; subst. exists 0, t. cbn [firstn length]. rewrite app_nil_r. split; [lia|]. split; [reflexivity|exact E].
Qed.

Definition nolink_above (st : dstate) (p : path) : Prop :=
  forall q t, is_strict_prefix q p = true -> fget (d_fs st) q <> Some (NLink t SKFolder).

Lemma nolink_resolve st p : nolink_above st p -> forall q, resolve_above st p <> PRThrough q.
Proof.
  intros Hn q H. unfold resolve_above in H. destruct p as [|c p]; [destruct (d_anc st); discriminate|].
  destruct (check_above_through_at (d_fs st) (c :: p) [] q H) as (k & t & Hk & -> & Hf).
  apply (Hn (firstn k (c :: p)) t); [|exact Hf]. apply strict_prefix_iff. exists k. split; [exact Hk|reflexivity].
Qed.

Lemma cmd_noevent fl st c p :
  path_cmd c = Some p -> is_chunk c = false -> nolink_above st p ->
  d_events (fst (doer_exec fl st c)) = d_events st.
Proof.
  intros Hp Hc Hn. apply path_cmd_cmd_path in Hp as Hp'.
  destruct (doer_exec_nc fl st c Hc) as [|Hq| | |p' q Hp'' Hr| |]; try reflexivity.
  - subst c. discriminate Hp.
  - replace p' with p in Hr by congruence. destruct (nolink_resolve st p Hn q Hr).
Qed.

Definition quiet_at (st : dstate) (p : path) : Prop :=
  p = [] \/ forall q, is_strict_prefix q p = true -> fget (d_fs st) q = Some NFolder.

Lemma quiet_nolink st p : quiet_at st p -> nolink_above st p.
Proof.
  intros [->|H] q t Hq E; [destruct q; discriminate|]. rewrite (H q Hq) in E. discriminate.
Qed.

Lemma quiet_resolve st p : quiet_at st p -> forall q, resolve_above st p <> PRThrough q.
Proof. intros H. apply nolink_resolve, quiet_nolink, H. Qed.

Lemma delete_quiet fl st c p :
  (c = CDeleteFile p \/ c = CDeleteFolder p \/ exists k, c = CDeleteSymlink p k) ->
  quiet_at st p -> d_events (fst (doer_exec fl st c)) = d_events st.
Proof.
  intros Hc Hq. apply (cmd_noevent fl st c p); [| |apply quiet_nolink, Hq];
    destruct Hc as [->|[->|(k & ->)]]; reflexivity.
Qed.

Definition not_link (st : dstate) (p : path) : Prop := forall t k, fget (d_fs st) p <> Some (NLink t k).
