(* Remote session model: what a step that happens does, as relations.  [next_inv] gives the eight kinds of step,
   [reach_next_ind] the induction over the reachable states; when no step is possible is analysed on the step
   functions themselves, in RemoteSessionBlocked.  A main thread touches its endpoint only through the five operations [eop]; what an operation, a
   sending thread or a receiving thread does to an endpoint is stated once, for any endpoint. *)
From RJ Require Import Base.Prelude Model.RemoteSession.

Local Open Scope nat_scope.

(* the doer's final message, written by its main thread directly on the socket *)
Definition final_write (s : st) : st :=
  set_ev (set_d2b (set_de (set_dm s (dgoto (dm s) (DExit 0))) (add_sent (set_sn (de s) (sn (de s) + 2)%N) MFinal))
                  (d2b s ++ [wframe (de s) MFinal (bad_d2b (ev s))]))
         (ev_badd (ev s) false).

(* [inv_some H]: H is [Some a = Some b] (or absurd): replace a by b everywhere.
   [projs]: compute the projections of the records of the model applied to their setters. *)
Ltac inv_some H := first [discriminate H | (injection H; try clear H; intros; subst)].
Ltac projs := cbn [bm be dm de b2d d2b ev pc bops berr bfin dp dpend eplan dexec
                   snd_t rcv_t outc inc sn rn hsent hgot q rxa txa
                   cut dalive dstat stdin_open bsock bad_b2d bad_d2b f_cut f_kill f_stdin f_bad nfault
                   set_bm set_be set_dm set_de set_b2d set_d2b set_ev
                   set_snd set_rcv set_outc set_inc set_sn set_rn add_sent add_got
                   push setq drop_rx drop_tx goto bfail setops gotfinal dgoto setpend exec app_took
                   ev_cut ev_end ev_kill ev_stdin ev_fstdin ev_bsock ev_badb ev_badd ev_fbad
                   fst snd fnonce fpay fgood wframe final_write] in *.

Definition is_b2d (m : msg) : bool := match m with MCmd _ _ | MShut => true | _ => false end.

Inductive snd_spec (c : config) (e : endpoint) (w : list frame) (br bad : bool) : endpoint -> list frame -> bool -> Prop :=
| snd_pop m t : snd_t e = SIdle -> q (outc e) = m :: t ->
    snd_spec c e w br bad (set_snd (set_outc e (setq (outc e) t)) (SHold m)) w bad
| snd_done : snd_t e = SIdle -> q (outc e) = [] -> txa (outc e) = false ->
    snd_spec c e w br bad (set_snd (set_outc e (drop_rx (outc e))) SOk) w bad
| snd_fail m : snd_t e = SHold m -> br = true ->
    snd_spec c e w br bad (set_snd (set_outc e (drop_rx (outc e))) SErr) w bad
| snd_write m : snd_t e = SHold m -> br = false -> has_space c w = true ->
    snd_spec c e w br bad (set_sn (set_snd e SIdle) (sn e + 2)%N) (w ++ [wframe e m bad]) false.

Lemma snd_step_some c e w br bad e' w' bad' :
  snd_step c e w br bad = Some (e', w', bad') -> snd_spec c e w br bad e' w' bad'.
Proof.
  unfold snd_step. intros H. destruct (snd_t e) eqn:T; try discriminate H.
  - destruct (q (outc e)) as [|m t] eqn:Q.
    + destruct (txa (outc e)) eqn:X; inv_some H. now apply snd_done.
    + inv_some H. now apply snd_pop.
  - destruct br; [inv_some H; eapply snd_fail; [exact T | reflexivity]|].
    destruct (has_space c w) eqn:S; inv_some H. now apply snd_write.
Qed.

Inductive rcv_spec (c : config) (e : endpoint) (w : list frame) (eof : bool) : endpoint -> list frame -> Prop :=
| rcv_accept f t : rcv_t e = RIdle -> w = f :: t -> fgood f = true -> fnonce f = rn e ->
    rcv_spec c e w eof (set_rn (set_rcv e (RHold (fpay f))) (rn e + 2)%N) t
| rcv_reject f t : rcv_t e = RIdle -> w = f :: t -> fgood f = false \/ fnonce f <> rn e ->
    rcv_spec c e w eof (set_rcv (set_inc e (drop_tx (inc e))) RErr) t
| rcv_eof : rcv_t e = RIdle -> w = [] -> eof = true ->
    rcv_spec c e w eof (set_rcv (set_inc e (drop_tx (inc e))) RErr) []
| rcv_push m : rcv_t e = RHold m -> can_send c (inc e) = true -> rxa (inc e) = true -> is_final m = false ->
    rcv_spec c e w eof (set_rcv (set_inc e (push (inc e) m)) RIdle) w
| rcv_last m : rcv_t e = RHold m -> can_send c (inc e) = true -> rxa (inc e) = true -> is_final m = true ->
    rcv_spec c e w eof (set_rcv (set_inc e (drop_tx (push (inc e) m))) ROk) w
| rcv_gone m : rcv_t e = RHold m -> rxa (inc e) = false ->
    rcv_spec c e w eof (set_rcv (set_inc e (drop_tx (inc e))) RErr) w.

Lemma rcv_step_some c e w eof e' w' : rcv_step c e w eof = Some (e', w') -> rcv_spec c e w eof e' w'.
Proof.
  unfold rcv_step. intros H. destruct (rcv_t e) eqn:T; try discriminate H.
  - destruct w as [|f t].
    + destruct eof; inv_some H. now apply rcv_eof.
    + destruct (fgood f && (fnonce f =? rn e)%N) eqn:G; inv_some H.
      * apply andb_true_iff in G as [G1 G2]. apply N.eqb_eq in G2. now apply rcv_accept.
      * eapply rcv_reject; [exact T | reflexivity |].
        apply andb_false_iff in G as [G|G]; [now left | right; now apply N.eqb_neq].
  - destruct (can_send c (inc e)) eqn:C; [|discriminate H]. destruct (rxa (inc e)) eqn:X.
    + destruct (is_final m) eqn:F; inv_some H; [now apply rcv_last | now apply rcv_push].
    + inv_some H. eapply rcv_gone; [exact T | exact X].
Qed.

(* what a main thread does to its own endpoint: nothing, Sender::send, Receiver::recv (memory_bound_channel.rs),
   drop(sender), drop(receiver) *)
Inductive eop := ESame | ESend (m : msg) | ERecv (m : msg) | EDropTx | EDropRx.

Definition ep_do (e : endpoint) (o : eop) : endpoint :=
  match o with
  | ESame => e
  | ESend m => add_sent (set_outc e (push (outc e) m)) m
  | ERecv m => add_got (set_inc e (setq (inc e) (tl (q (inc e))))) m
  | EDropTx => set_outc e (drop_tx (outc e))
  | EDropRx => set_inc e (drop_rx (inc e))
  end.

Definition ep_can (c : config) (e : endpoint) (o : eop) : Prop :=
  match o with
  | ESend _ => can_send c (outc e) = true /\ rxa (outc e) = true
  | ERecv m => exists t, q (inc e) = m :: t
  | _ => True
  end.

Lemma main_send_some c e m e' : main_send c e m = Some (Some e') -> ep_can c e (ESend m) /\ e' = ep_do e (ESend m).
Proof.
  unfold main_send. intros H. destruct (can_send c (outc e)) eqn:C; [|discriminate H].
  destruct (rxa (outc e)) eqn:X; inv_some H. cbn [ep_can]. auto.
Qed.

Lemma main_send_lost c e m : main_send c e m = Some None -> rxa (outc e) = false.
Proof.
  unfold main_send. destruct (can_send c (outc e)); [|discriminate]. destruct (rxa (outc e)); [discriminate | reflexivity].
Qed.

Lemma main_send_none c e m : main_send c e m = None -> can_send c (outc e) = false.
Proof.
  unfold main_send. destruct (can_send c (outc e)); [|reflexivity]. destruct (rxa (outc e)); discriminate.
Qed.

Lemma main_recv_some c e m e' : main_recv e = Some (Some (m, e')) -> ep_can c e (ERecv m) /\ e' = ep_do e (ERecv m).
Proof.
  unfold main_recv. intros H. destruct (q (inc e)) as [|x t] eqn:Q; [destruct (txa (inc e)); discriminate H|].
  inv_some H. cbn [ep_can ep_do]. rewrite Q. eauto.
Qed.

Lemma main_recv_lost e : main_recv e = Some None -> q (inc e) = [] /\ txa (inc e) = false.
Proof.
  unfold main_recv. destruct (q (inc e)); [|discriminate]. destruct (txa (inc e)); [discriminate | auto].
Qed.

Lemma main_recv_none e : main_recv e = None -> q (inc e) = [] /\ txa (inc e) = true.
Proof.
  unfold main_recv. destruct (q (inc e)); [|discriminate]. destruct (txa (inc e)); [auto | discriminate].
Qed.

(* an endpoint is a sending half and a receiving half; every operation leaves one of them alone *)
Definition same_in (e e' : endpoint) : Prop := rcv_t e' = rcv_t e /\ inc e' = inc e /\ rn e' = rn e /\ hgot e' = hgot e.
Definition same_out (e e' : endpoint) : Prop := snd_t e' = snd_t e /\ outc e' = outc e /\ sn e' = sn e /\ hsent e' = hsent e.

Lemma snd_spec_in c e w br bad e' w' bad' : snd_spec c e w br bad e' w' bad' -> same_in e e'.
Proof. intros []; repeat split. Qed.

Lemma rcv_spec_out c e w eof e' w' : rcv_spec c e w eof e' w' -> same_out e e'.
Proof. intros []; repeat split. Qed.

Lemma ep_do_threads e o :
  snd_t (ep_do e o) = snd_t e /\ rcv_t (ep_do e o) = rcv_t e /\ sn (ep_do e o) = sn e /\ rn (ep_do e o) = rn e.
Proof. destruct o; repeat split. Qed.

(* the boss main thread, at program counter p: the operation on its endpoint, its new state, the new
   environment *)
Inductive boss_move (s : st) : bpc -> eop -> bmain -> env -> Prop :=
| bm_done : bops (bm s) = [] -> boss_move s BApp ESame (goto (bm s) BShut) (ev s)
| bm_send id rs t : bops (bm s) = OSend id rs :: t -> boss_move s BApp (ESend (MCmd id rs)) (setops (bm s) t) (ev s)
| bm_fail : bops (bm s) <> [] -> boss_move s BApp ESame (bfail (bm s)) (ev s)
| bm_took o t m : bops (bm s) = o :: t -> is_resp m = true -> boss_move s BApp (ERecv m) (setops (bm s) t) (ev s)
| bm_took_bad m : bops (bm s) <> [] -> is_resp m = false -> boss_move s BApp (ERecv m) (bfail (bm s)) (ev s)
| bm_empty t : bops (bm s) = OTry :: t -> boss_move s BApp ESame (setops (bm s) t) (ev s)
| bm_shut : boss_move s BShut (ESend MShut) (goto (bm s) BFinal) (ev s)
| bm_shut_lost : rxa (outc (be s)) = false -> boss_move s BShut ESame (goto (bm s) BFinal) (ev s)
| bm_final m : boss_move s BFinal (ERecv m) (gotfinal (bm s) m) (ev s)
| bm_final_lost : boss_move s BFinal ESame (goto (bm s) BDropS) (ev s)
| bm_drops : boss_move s BDropS EDropTx (goto (bm s) BJoinS) (ev s)
| bm_joins : snd_ended (snd_t (be s)) = true -> boss_move s BJoinS ESame (goto (bm s) BDropR) (ev s)
| bm_dropr : boss_move s BDropR EDropRx (goto (bm s) BJoinR) (ev s)
| bm_joinr : rcv_ended (rcv_t (be s)) = true -> boss_move s BJoinR ESame (goto (bm s) BClose) (ev_bsock (ev s))
| bm_close : boss_move s BClose ESame (goto (bm s) BWait) (ev_stdin (ev s))
| bm_wait : dalive (ev s) = false -> boss_move s BWait ESame (goto (bm s) BEnd) (ev s).

Lemma boss_step_inv c s s' : boss_step c s = Some s' ->
  exists o b' v', boss_move s (pc (bm s)) o b' v' /\ ep_can c (be s) o /\
    s' = set_ev (set_be (set_bm s b') (ep_do (be s) o)) v'.
Proof.
  unfold boss_step. intros H.
  assert (move : forall p o b' v', boss_move s p o b' v' -> ep_can c (be s) o ->
            s' = set_ev (set_be (set_bm s b') (ep_do (be s) o)) v' ->
            exists o b' v', boss_move s p o b' v' /\ ep_can c (be s) o /\
              s' = set_ev (set_be (set_bm s b') (ep_do (be s) o)) v').
  { intros p o b' v' M C E. exists o, b', v'. auto. }
  destruct (pc (bm s)).
  - destruct (bops (bm s)) as [|[id rs| |] t] eqn:B.
    + inv_some H. eapply move; [now apply bm_done | exact I | reflexivity].
    + destruct (main_send c (be s) (MCmd id rs)) as [[e'|]|] eqn:E; inv_some H.
      * apply main_send_some in E as [E ->]. eapply move; [eapply bm_send; exact B | exact E | reflexivity].
      * eapply move; [apply bm_fail; rewrite B; discriminate | exact I | reflexivity].
    + destruct (main_recv (be s)) as [[[m e']|]|] eqn:E; inv_some H.
      * apply (main_recv_some c) in E as [E ->]. unfold app_took in *. destruct (is_resp m) eqn:R.
        -- eapply move; [eapply bm_took; [exact B | exact R] | exact E | reflexivity].
        -- eapply move; [apply bm_took_bad; [rewrite B; discriminate | exact R] | exact E | reflexivity].
      * eapply move; [apply bm_fail; rewrite B; discriminate | exact I | reflexivity].
    + destruct (main_recv (be s)) as [[[m e']|]|] eqn:E; inv_some H.
      * apply (main_recv_some c) in E as [E ->]. unfold app_took in *. destruct (is_resp m) eqn:R.
        -- eapply move; [eapply bm_took; [exact B | exact R] | exact E | reflexivity].
        -- eapply move; [apply bm_took_bad; [rewrite B; discriminate | exact R] | exact E | reflexivity].
      * eapply move; [apply bm_fail; rewrite B; discriminate | exact I | reflexivity].
      * eapply move; [eapply bm_empty; exact B | exact I | reflexivity].
  - destruct (main_send c (be s) MShut) as [[e'|]|] eqn:E; inv_some H.
    + apply main_send_some in E as [E ->]. eapply move; [apply bm_shut | exact E | reflexivity].
    + eapply move; [apply bm_shut_lost; eapply main_send_lost; exact E | exact I | reflexivity].
  - destruct (main_recv (be s)) as [[[m e']|]|] eqn:E; inv_some H.
    + apply (main_recv_some c) in E as [E ->]. eapply move; [apply bm_final | exact E | reflexivity].
    + eapply move; [apply bm_final_lost | exact I | reflexivity].
  - inv_some H. eapply move; [apply bm_drops | exact I | reflexivity].
  - destruct (snd_ended (snd_t (be s))) eqn:X; inv_some H. eapply move; [now apply bm_joins | exact I | reflexivity].
  - inv_some H. eapply move; [apply bm_dropr | exact I | reflexivity].
  - destruct (rcv_ended (rcv_t (be s))) eqn:X; inv_some H. eapply move; [now apply bm_joinr | exact I | reflexivity].
  - inv_some H. eapply move; [apply bm_close | exact I | reflexivity].
  - destruct (dalive (ev s)) eqn:X; inv_some H. eapply move; [now apply bm_wait | exact I | reflexivity].
  - discriminate H.
Qed.

(* a boss step moves its program counter down the order [bpcw]; it leaves the fault state alone and can only
   close the socket and the doer's stdin *)
Lemma boss_move_rank s p o b' v' : boss_move s p o b' v' -> pc (bm s) = p -> bpcw (pc b') <= bpcw p.
Proof.
  intros [] P; projs; rewrite ?P; cbn [bpcw]; lia.
Qed.

Lemma boss_move_env s p o b' v' : boss_move s p o b' v' ->
  cut v' = cut (ev s) /\ dalive v' = dalive (ev s) /\ bad_b2d v' = bad_b2d (ev s) /\ bad_d2b v' = bad_d2b (ev s) /\
  nfault v' = nfault (ev s) /\ (bsock (ev s) = false -> bsock v' = false).
Proof. intros []; projs; repeat split; auto; discriminate. Qed.

(* the doer main thread while it only uses its endpoint *)
Inductive doer_move (s : st) : dpc -> eop -> dmain -> Prop :=
| dm_send r rest : dpend (dm s) = r :: rest -> doer_move s DLoop (ESend r) (setpend (dm s) rest)
| dm_send_lost : dpend (dm s) <> [] -> rxa (outc (de s)) = false -> doer_move s DLoop ESame (dgoto (dm s) (DExit 20))
| dm_cmd id rs : dpend (dm s) = [] -> doer_move s DLoop (ERecv (MCmd id rs)) (exec (dm s) id rs)
| dm_shut : dpend (dm s) = [] -> doer_move s DLoop (ERecv MShut) (dgoto (dm s) DDropS)
| dm_junk m : dpend (dm s) = [] -> is_b2d m = false -> doer_move s DLoop (ERecv m) (dgoto (dm s) (DExit 101))
| dm_lost : dpend (dm s) = [] -> q (inc (de s)) = [] -> txa (inc (de s)) = false ->
    doer_move s DLoop ESame (dgoto (dm s) DDropS)
| dm_drops : doer_move s DDropS EDropTx (dgoto (dm s) DJoinS)
| dm_joins : snd_ended (snd_t (de s)) = true -> doer_move s DJoinS ESame (dgoto (dm s) DDropR)
| dm_dropr : doer_move s DDropR EDropRx (dgoto (dm s) DJoinR)
| dm_joinr : rcv_ended (rcv_t (de s)) = true -> doer_move s DJoinR ESame (dgoto (dm s) DFinal)
| dm_nofinal : snd_t (de s) <> SOk \/ d_broken s = true -> doer_move s DFinal ESame (dgoto (dm s) (DExit 0)).

Lemma doer_step_inv c s s' : doer_step c s = Some s' ->
  (exists o d', doer_move s (dp (dm s)) o d' /\ ep_can c (de s) o /\ s' = set_de (set_dm s d') (ep_do (de s) o)) \/
  (dp (dm s) = DFinal /\ snd_t (de s) = SOk /\ d_broken s = false /\ has_space c (d2b s) = true /\ s' = final_write s) \/
  (exists code, dp (dm s) = DExit code /\ s' = set_ev s (ev_end (ev s) code)).
Proof.
  unfold doer_step. intros H.
  assert (move : forall p o d', doer_move s p o d' -> ep_can c (de s) o -> s' = set_de (set_dm s d') (ep_do (de s) o) ->
            exists o d', doer_move s p o d' /\ ep_can c (de s) o /\ s' = set_de (set_dm s d') (ep_do (de s) o)).
  { intros p o d' M C E. exists o, d'. auto. }
  destruct (dp (dm s)) eqn:P.
  - left. destruct (dpend (dm s)) as [|r rest] eqn:D.
    + destruct (main_recv (de s)) as [[[m e']|]|] eqn:E; [| |discriminate H].
      * apply (main_recv_some c) in E as [E ->].
        destruct m; inv_some H; (eapply move; [|exact E | reflexivity]);
          [now apply dm_cmd | now apply dm_shut | now apply dm_junk..].
      * inv_some H. destruct (main_recv_lost _ E). eapply move; [now apply dm_lost | exact I | reflexivity].
    + destruct (main_send c (de s) r) as [[e'|]|] eqn:E; inv_some H.
      * apply main_send_some in E as [E ->]. eapply move; [eapply dm_send; exact D | exact E | reflexivity].
      * eapply move; [apply dm_send_lost; [rewrite D; discriminate | eapply main_send_lost; exact E] | exact I | reflexivity].
  - left. inv_some H. eapply move; [apply dm_drops | exact I | reflexivity].
  - left. destruct (snd_ended (snd_t (de s))) eqn:X; inv_some H. eapply move; [now apply dm_joins | exact I | reflexivity].
  - left. inv_some H. eapply move; [apply dm_dropr | exact I | reflexivity].
  - left. destruct (rcv_ended (rcv_t (de s))) eqn:X; inv_some H. eapply move; [now apply dm_joinr | exact I | reflexivity].
  - destruct (snd_t (de s)) eqn:T;
      try (left; inv_some H; eapply move; [apply dm_nofinal; left; rewrite T; discriminate | exact I | reflexivity]).
    destruct (d_broken s) eqn:B; [left; inv_some H; eapply move; [apply dm_nofinal; now right | exact I | reflexivity]|].
    destruct (has_space c (d2b s)) eqn:S; inv_some H. right; left. repeat split.
  - inv_some H. right; right. eauto.
Qed.

Inductive env_step (s : st) : action -> env -> Prop :=
| e_exit code : dalive (ev s) = true -> dp (dm s) = DExit code -> env_step s ADoer (ev_end (ev s) code)
| e_watch : dalive (ev s) = true -> stdin_open (ev s) = false -> env_step s AWatch (ev_end (ev s) 65)
| e_cut : f_cut (ev s) = true -> cut (ev s) = false -> env_step s FCut (ev_cut (ev s))
| e_kill : f_kill (ev s) = true -> dalive (ev s) = true -> env_step s FKill (ev_kill (ev s))
| e_stdin : f_stdin (ev s) = true -> stdin_open (ev s) = true -> env_step s FStdin (ev_fstdin (ev s))
| e_bad (d : bool) n : f_bad (ev s) = S n -> (if d then bad_d2b (ev s) else bad_b2d (ev s)) = false ->
    env_step s (FBad d) (ev_fbad (ev s) d).

(* such a step either is a fault step or leaves the fault state alone; it never touches the boss's socket and never
   brings the doer back *)
Lemma env_step_frame s a v' : env_step s a v' ->
  bsock v' = bsock (ev s) /\ (dalive v' = true -> dalive (ev s) = true) /\
  (nfault v' = S (nfault (ev s)) \/
   nfault v' = nfault (ev s) /\ cut v' = cut (ev s) /\ bad_b2d v' = bad_b2d (ev s) /\ bad_d2b v' = bad_d2b (ev s)).
Proof. intros []; projs; repeat split; auto; discriminate. Qed.

Inductive next_spec (c : config) (s : st) : action -> st -> Prop :=
| n_boss p o b' v' : pc (bm s) = p -> boss_move s p o b' v' -> ep_can c (be s) o ->
    next_spec c s ABoss (set_ev (set_be (set_bm s b') (ep_do (be s) o)) v')
| n_doer p o d' : dalive (ev s) = true -> dp (dm s) = p -> doer_move s p o d' -> ep_can c (de s) o ->
    next_spec c s ADoer (set_de (set_dm s d') (ep_do (de s) o))
| n_final : dalive (ev s) = true -> dp (dm s) = DFinal -> snd_t (de s) = SOk -> d_broken s = false ->
    has_space c (d2b s) = true -> next_spec c s ADoer (final_write s)
| n_bsnd e' w' bad' : at_end s = false -> snd_spec c (be s) (b2d s) (b_broken s) (bad_b2d (ev s)) e' w' bad' ->
    next_spec c s ABSnd (set_ev (set_b2d (set_be s e') w') (ev_badb (ev s) bad'))
| n_brcv e' w' : at_end s = false -> rcv_spec c (be s) (d2b s) (b_broken s) e' w' ->
    next_spec c s ABRcv (set_d2b (set_be s e') w')
| n_dsnd e' w' bad' : dalive (ev s) = true -> snd_spec c (de s) (d2b s) (d_broken s) (bad_d2b (ev s)) e' w' bad' ->
    next_spec c s ADSnd (set_ev (set_d2b (set_de s e') w') (ev_badd (ev s) bad'))
| n_drcv e' w' : dalive (ev s) = true -> rcv_spec c (de s) (b2d s) (d_broken s) e' w' ->
    next_spec c s ADRcv (set_b2d (set_de s e') w')
| n_env a v' : env_step s a v' -> next_spec c s a (set_ev s v').

Lemma next_inv c a s s' : next c a s = Some s' -> final s = false /\ next_spec c s a s'.
Proof.
  unfold next. intros H. destruct (final s); [discriminate H|]. split; [reflexivity|].
  destruct a.
  - apply boss_step_inv in H as (o & b' & v' & M & C & ->). now eapply n_boss.
  - destruct (at_end s) eqn:A; [discriminate H|].
    destruct (snd_step c (be s) (b2d s) (b_broken s) (bad_b2d (ev s))) as [[[e' w'] bad']|] eqn:E; inv_some H.
    apply n_bsnd; [exact A | now apply snd_step_some].
  - destruct (at_end s) eqn:A; [discriminate H|].
    destruct (rcv_step c (be s) (d2b s) (b_broken s)) as [[e' w']|] eqn:E; inv_some H.
    apply n_brcv; [exact A | now apply rcv_step_some].
  - destruct (dalive (ev s)) eqn:A; [|discriminate H].
    apply doer_step_inv in H as [(o & d' & M & C & ->)|[(P & T & B & S & ->)|(code & P & ->)]].
    + now eapply n_doer.
    + now apply n_final.
    + apply n_env. now apply e_exit.
  - destruct (dalive (ev s)) eqn:A; [|discriminate H].
    destruct (snd_step c (de s) (d2b s) (d_broken s) (bad_d2b (ev s))) as [[[e' w'] bad']|] eqn:E; inv_some H.
    apply n_dsnd; [exact A | now apply snd_step_some].
  - destruct (dalive (ev s)) eqn:A; [|discriminate H].
    destruct (rcv_step c (de s) (b2d s) (d_broken s)) as [[e' w']|] eqn:E; inv_some H.
    apply n_drcv; [exact A | now apply rcv_step_some].
  - destruct (dalive (ev s)) eqn:A; [|discriminate H]. destruct (stdin_open (ev s)) eqn:O; inv_some H.
    apply n_env. now apply e_watch.
  - destruct (f_cut (ev s)) eqn:F; [|discriminate H]. destruct (cut (ev s)) eqn:C; inv_some H.
    apply n_env. now apply e_cut.
  - destruct (f_kill (ev s)) eqn:F; [|discriminate H]. destruct (dalive (ev s)) eqn:A; inv_some H.
    apply n_env. now apply e_kill.
  - destruct (f_stdin (ev s)) eqn:F; [|discriminate H]. destruct (stdin_open (ev s)) eqn:O; inv_some H.
    apply n_env. now apply e_stdin.
  - destruct (f_bad (ev s)) eqn:F; [discriminate H|].
    destruct (if d2b_dir then bad_d2b (ev s) else bad_b2d (ev s)) eqn:B; inv_some H.
    apply n_env. eapply e_bad; eassumption.
Qed.

(* [next_cases H], for H : next c a s = Some s': the eight kinds of step, in the order of [next_spec], with the names
   P (the program counter), M (the move), C (the operation is enabled), E (what the thread or the environment did),
   A (the process or the boss's threads are still there) *)
Ltac next_cases H :=
  apply next_inv in H as [_ H];
  destruct H as [p o b' v' P M C | p o d' A P M C | A P T B S | e' w' bad' A E | e' w' A E | e' w' bad' A E | e' w' A E | a v' E].

Lemma reach_next_ind c x (P : st -> Prop) :
  P (init x) -> (forall a s s', reach c x s -> P s -> next c a s = Some s' -> P s') ->
  forall s, reach c x s -> P s.
Proof. intros H0 HS s R. induction R as [|s s' R IH [a Ha]]; [exact H0 | exact (HS a s s' R IH Ha)]. Qed.

(* one step seen from one direction: sending endpoint, wire, receiving endpoint.  [bad]: the adversary replaces
   the next frame written in this direction. *)
Inductive dir_step (c : config) (bad : bool) (tx : endpoint) (w : list frame) (rx : endpoint)
  : endpoint -> list frame -> endpoint -> Prop :=
| ds_tx o : ep_can c tx o -> dir_step c bad tx w rx (ep_do tx o) w rx
| ds_rx o : ep_can c rx o -> dir_step c bad tx w rx tx w (ep_do rx o)
| ds_snd br tx' w' bad' : snd_spec c tx w br bad tx' w' bad' -> dir_step c bad tx w rx tx' w' rx
| ds_rcv eof rx' w' : rcv_spec c rx w eof rx' w' -> dir_step c bad tx w rx tx w' rx'
| ds_other tx' rx' : same_out tx tx' -> same_in rx rx' -> dir_step c bad tx w rx tx' w rx'
| ds_final : snd_t tx = SOk ->
    dir_step c bad tx w rx (add_sent (set_sn tx (sn tx + 2)%N) MFinal) (w ++ [wframe tx MFinal bad]) rx.

Lemma next_dirs c a s s' : next c a s = Some s' ->
  dir_step c (bad_b2d (ev s)) (be s) (b2d s) (de s) (be s') (b2d s') (de s') /\
  dir_step c (bad_d2b (ev s)) (de s) (d2b s) (be s) (de s') (d2b s') (be s').
Proof.
  intros H. next_cases H; projs.
  - split; [now apply ds_tx | now apply ds_rx].
  - split; [now apply ds_rx | now apply ds_tx].
  - split; [apply ds_other; repeat split | now apply ds_final].
  - split; [eapply ds_snd; eassumption | apply ds_other; [repeat split | eapply snd_spec_in; eassumption]].
  - split; [apply ds_other; [eapply rcv_spec_out; eassumption | repeat split] | eapply ds_rcv; eassumption].
  - split; [apply ds_other; [repeat split | eapply snd_spec_in; eassumption] | eapply ds_snd; eassumption].
  - split; [eapply ds_rcv; eassumption | apply ds_other; [eapply rcv_spec_out; eassumption | repeat split]].
  - split; exact (ds_tx _ _ _ _ _ ESame I).
Qed.
