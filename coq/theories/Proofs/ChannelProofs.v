(* Invariants of the byte-accounted channel (Model/Channel.v), for every interleaving. *)
From RJ Require Import Base.Prelude Model.LEInt Model.Channel Proofs.LEIntProofs.
Local Open Scope N_scope.

Section WithM.
Context {M : Type}.
Implicit Types (s : chan M) (q : list (M * N)).

Lemma qbytes_app q1 q2 : qbytes (q1 ++ q2) = qbytes q1 + qbytes q2.
Proof. unfold qbytes. rewrite map_app, sumN_app. reflexivity. Qed.

Lemma qbytes_cons (m : M) sz q : qbytes ((m, sz) :: q) = sz + qbytes q.
Proof. reflexivity. Qed.

Lemma qbytes_nil_iff q : qbytes q = 0 -> (forall x, In x q -> snd x = 0).
Proof.
  induction q as [|[m z] q IH]; intros H x Hin; [destruct Hin|].
  rewrite qbytes_cons in H. destruct Hin as [<-|Hin]; [cbn [snd]; lia | apply IH; [lia | exact Hin]].
Qed.

(* the executable step function and the rule-by-rule relation are the same relation *)
Theorem step_astep s s' : step s s' <-> astep s s'.
Proof.
  split.
  - intros [o Hst]. destruct o as [m sz| | | | |]; cbn [chan_step] in Hst.
    + destruct (c_spc s) eqn:Es; try discriminate. inversion Hst; subst; clear Hst.
      destruct (N.ltb_spec (c_cap s) (c_usage s)).
      * apply a_fetch_add_wait; assumption.
      * apply a_fetch_add_admit; assumption.
    + destruct (c_spc s) as [|m sz|m sz|] eqn:Es; try discriminate. inversion Hst; subst; clear Hst.
      destruct (N.ltb_spec (c_usage s) sz).
      * apply (a_load_underflow s m sz); assumption.
      * destruct (N.ltb_spec (c_cap s) (c_usage s - sz)).
        -- apply (a_load_spin s m sz); assumption.
        -- apply (a_load_pass s m sz); assumption.
    + destruct (c_spc s) as [|m sz|m sz|] eqn:Es; try discriminate. inversion Hst; subst; clear Hst.
      apply (a_push s m sz); assumption.
    + destruct (c_rpc s) eqn:Er; try discriminate. destruct (c_queue s) as [|[m sz] t] eqn:Eq; try discriminate.
      inversion Hst; subst; clear Hst. apply (a_pop s m sz t); assumption.
    + destruct (c_rpc s) eqn:Er; try discriminate. destruct (c_queue s) eqn:Eq; try discriminate.
      inversion Hst; subst; clear Hst. apply a_try_empty; assumption.
    + destruct (c_rpc s) as [|m sz|] eqn:Er; try discriminate.
      destruct (N.ltb_spec (c_usage s) sz); inversion Hst; subst; clear Hst.
      * apply (a_fetch_sub_underflow s m sz); assumption.
      * apply (a_fetch_sub s m sz); assumption.
  - intros H. destruct H as [m sz Es Hc|m sz Es Hc|m sz Es Hu Hc|m sz Es Hu Hc|m sz Es Hu|m sz Es|m sz t Er Eq|Er Eq|m sz Er Hu|m sz Er Hu].
    + exists (OFetchAdd m sz). cbn [chan_step]. rewrite Es. destruct (N.ltb_spec (c_cap s) (c_usage s)); [lia | reflexivity].
    + exists (OFetchAdd m sz). cbn [chan_step]. rewrite Es. destruct (N.ltb_spec (c_cap s) (c_usage s)); [reflexivity | lia].
    + exists OLoad. cbn [chan_step]. rewrite Es. destruct (N.ltb_spec (c_usage s) sz); [lia|].
      destruct (N.ltb_spec (c_cap s) (c_usage s - sz)); [reflexivity | lia].
    + exists OLoad. cbn [chan_step]. rewrite Es. destruct (N.ltb_spec (c_usage s) sz); [lia|].
      destruct (N.ltb_spec (c_cap s) (c_usage s - sz)); [lia | reflexivity].
    + exists OLoad. cbn [chan_step]. rewrite Es. destruct (N.ltb_spec (c_usage s) sz); [reflexivity | lia].
    + exists OPush. cbn [chan_step]. rewrite Es. reflexivity.
    + exists OPop. cbn [chan_step]. rewrite Er, Eq. reflexivity.
    + exists OTryEmpty. cbn [chan_step]. rewrite Er, Eq. reflexivity.
    + exists OFetchSub. cbn [chan_step]. rewrite Er. destruct (N.ltb_spec (c_usage s) sz); [lia | reflexivity].
    + exists OFetchSub. cbn [chan_step]. rewrite Er. destruct (N.ltb_spec (c_usage s) sz); [reflexivity | lia].
Qed.

(* The invariant.  [others] is what a sender inside send() sees as "already queued". *)
Definition Inv (cap : N) s : Prop :=
  c_usage s = qbytes (c_queue s) + s_inflight (c_spc s) + r_inflight (c_rpc s) /\
  c_handed s = c_delivered s ++ in_transit s /\
  c_spc s <> SUnderflow /\ c_rpc s <> RUnderflow /\
  (forall m sz, c_spc s = SPush m sz -> others s <= c_cap s) /\
  others s <= c_cap s + c_maxsz s /\
  s_inflight (c_spc s) <= c_maxsz s /\
  c_cap s = cap.

Ltac fields :=
  unfold others, in_transit in *;
  cbn [c_cap c_usage c_queue c_spc c_rpc c_handed c_delivered c_maxsz others in_transit
       s_inflight r_inflight s_msg r_msg chan_init] in *.

Lemma inv_init cap : Inv cap (chan_init cap).
Proof.
  unfold Inv. fields. cbn [qbytes map sumN app]. repeat split; try discriminate; try lia.
Qed.

Ltac lst :=
  rewrite ?app_nil_r, ?map_app, <- ?app_assoc; cbn [map fst app];
  rewrite ?app_nil_r, <- ?app_assoc; reflexivity.
Ltac fin Hp :=
  unfold Inv; fields; repeat split; try discriminate; try assumption; try lia;
  try (let E := fresh "E" in intros ? ? E; try discriminate; try (specialize (Hp _ _ E)); lia);
  try lst.

Lemma inv_step cap s s' : Inv cap s -> step s s' -> Inv cap s'.
Proof.
  intros (Hu & Hh & Hs & Hr & Hp & Hb & Hm & Hc) Hst. apply step_astep in Hst.
  destruct s as [cp u q sp rp h d mx]. fields. subst cp.
  destruct Hst as [m sz Es Hc|m sz Es Hc|m sz Es Hu' Hc|m sz Es Hu' Hc|m sz Es Hu'|m sz Es|m sz t Er Eq|Er Eq|m sz Er Hu'|m sz Er Hu'];
    unfold upd; fields; subst; fields.
  - (* fetch_add, admitted / waiting *) fin Hp.
  - fin Hp.
  - (* load, still waiting / admitted *) fin Hp.
  - fin Hp.
  - (* load cannot underflow: the counter includes the waiting message *) lia.
  - (* push *)
    specialize (Hp m sz eq_refl). unfold Inv. fields. rewrite qbytes_app, qbytes_cons. cbn [qbytes map sumN].
    fin Hp.
  - (* pop *) rewrite qbytes_cons in *. fin Hp.
  - (* try_recv on an empty queue *) fin Hp.
  - (* fetch_sub *) fin Hp.
  - (* fetch_sub cannot underflow: the counter includes the popped message *) lia.
Qed.

Theorem reach_inv cap s : reach cap s -> Inv cap s.
Proof. induction 1 as [|s s' _ IH Hst]; [apply inv_init | eapply inv_step; eassumption]. Qed.

(* exactly once, in order, the same messages: what was handed to send() is what recv() returned,
   followed by what is still in transit (popped, queued, being sent - in this order) *)
Theorem fifo cap s : reach cap s -> c_handed s = c_delivered s ++ in_transit s.
Proof. intros H. apply (reach_inv cap s H). Qed.

Theorem fifo_prefix cap s : reach cap s -> exists rest, c_handed s = c_delivered s ++ rest.
Proof. intros H. exists (in_transit s). apply (fifo cap s H). Qed.

Theorem fifo_quiescent cap s : reach cap s -> quiescent s -> c_delivered s = c_handed s.
Proof.
  intros H (Hq & Hs & Hr). rewrite (fifo cap s H). unfold in_transit. rewrite Hq, Hs, Hr.
  cbn [r_msg s_msg map app]. rewrite app_nil_r. reflexivity.
Qed.

Theorem account cap s : reach cap s ->
  c_usage s = qbytes (c_queue s) + s_inflight (c_spc s) + r_inflight (c_rpc s).
Proof. intros H. apply (reach_inv cap s H). Qed.

Theorem drained_zero cap s : reach cap s -> quiescent s -> c_usage s = 0.
Proof.
  intros H (Hq & Hs & Hr). rewrite (account cap s H), Hq, Hs, Hr. reflexivity.
Qed.

Theorem no_underflow cap s : reach cap s -> c_spc s <> SUnderflow /\ c_rpc s <> RUnderflow.
Proof. intros H. destruct (reach_inv cap s H) as (_ & _ & Hs & Hr & _). split; assumption. Qed.

(* the operands of the two subtractions of the code, at the moment they are executed *)
Theorem wait_loop_sub_ok cap s m sz : reach cap s -> c_spc s = SWaiting m sz -> sz <= c_usage s.
Proof. intros H E. rewrite (account cap s H), E. cbn [s_inflight]. lia. Qed.
Theorem fetch_sub_ok cap s m sz : reach cap s -> c_rpc s = RPopped m sz -> sz <= c_usage s.
Proof. intros H E. rewrite (account cap s H), E. cbn [r_inflight]. lia. Qed.

Theorem cap_constant cap s : reach cap s -> c_cap s = cap.
Proof. intros H. apply (reach_inv cap s H). Qed.

(* the counter never exceeds the live bytes: it stays below 2^64 whenever those do *)
Theorem no_overflow cap s : reach cap s ->
  qbytes (c_queue s) + s_inflight (c_spc s) + r_inflight (c_rpc s) < 18446744073709551616 ->
  c_usage s < 18446744073709551616.
Proof. intros H B. rewrite (account cap s H). exact B. Qed.

(* admission at the entry of send(): the sender waits iff more than the capacity is already queued *)
Theorem admission_entry cap s m sz s' : reach cap s -> chan_step s (OFetchAdd m sz) = Some s' ->
  c_usage s = others s /\
  (cap < others s -> c_spc s' = SWaiting m sz) /\
  (others s <= cap -> c_spc s' = SPush m sz).
Proof.
  intros H Hst. pose proof (account cap s H) as Hu. pose proof (cap_constant cap s H) as Hc.
  cbn [chan_step] in Hst. destruct (c_spc s) eqn:Es; try discriminate. inversion Hst; subst; clear Hst.
  cbn [c_spc s_inflight] in *. unfold others. try rewrite Es in Hu. cbn [s_inflight] in Hu.
  split; [lia|]. split; intros Hlt.
  - destruct (N.ltb_spec (c_cap s) (c_usage s)); [reflexivity | lia].
  - destruct (N.ltb_spec (c_cap s) (c_usage s)); [lia | reflexivity].
Qed.

(* admission inside the wait loop: one iteration keeps waiting iff more than the capacity is still queued *)
Theorem admission_loop cap s m sz s' : reach cap s -> c_spc s = SWaiting m sz ->
  chan_step s OLoad = Some s' ->
  c_usage s - sz = others s /\
  (cap < others s -> c_spc s' = SWaiting m sz) /\
  (others s <= cap -> c_spc s' = SPush m sz).
Proof.
  intros H Es Hst. pose proof (account cap s H) as Hu. pose proof (cap_constant cap s H) as Hc.
  cbn [chan_step] in Hst. rewrite Es in Hst. inversion Hst; subst; clear Hst.
  cbn [c_spc] in *. unfold others. try rewrite Es in Hu. cbn [s_inflight] in Hu.
  destruct (N.ltb_spec (c_usage s) sz) as [Hlt|Hge]; [lia|].
  split; [lia|]. split; intros Hlt.
  - destruct (N.ltb_spec (c_cap s) (c_usage s - sz)); [reflexivity | lia].
  - destruct (N.ltb_spec (c_cap s) (c_usage s - sz)); [lia | reflexivity].
Qed.

(* a message is admitted at once when nothing else is in the channel - whatever its size and
   whatever the capacity (0 included) *)
Theorem oversize cap s m sz s' : reach cap s -> c_queue s = [] -> c_rpc s = RIdle ->
  chan_step s (OFetchAdd m sz) = Some s' -> c_spc s' = SPush m sz.
Proof.
  intros H Hq Hr Hst. destruct (admission_entry cap s m sz s' H Hst) as (_ & _ & Hadm).
  apply Hadm. unfold others. rewrite Hq, Hr. cbn [qbytes map sumN r_inflight]. lia.
Qed.

(* once admitted, the push is never held back *)
Theorem admitted_pushes s m sz : c_spc s = SPush m sz -> exists s', chan_step s OPush = Some s'.
Proof. intros E. cbn [chan_step]. rewrite E. eexists; reflexivity. Qed.

(* progress: a sender that an iteration of the wait loop would keep waiting always has a receiver
   step in front of it (pop or fetch_sub is enabled) ... *)
Theorem progress cap s m sz : reach cap s -> c_spc s = SWaiting m sz -> cap < others s ->
  (exists s', chan_step s OPop = Some s') \/ (exists s', chan_step s OFetchSub = Some s').
Proof.
  intros H Es Hlt. pose proof (no_underflow cap s H) as [_ Hr]. unfold others in Hlt.
  destruct (c_rpc s) as [|m' sz'|] eqn:Er; [|right|congruence].
  - left. cbn [r_inflight] in Hlt. destruct (c_queue s) as [|[m' sz'] t] eqn:Eq.
    + cbn [qbytes map sumN] in Hlt. lia.
    + cbn [chan_step]. rewrite Er, Eq. eexists; reflexivity.
  - cbn [chan_step]. rewrite Er. destruct (c_usage s <? sz'); eexists; reflexivity.
Qed.

(* ... every receiver step consumes a finite measure that no step of the waiting sender replenishes ... *)
Theorem recv_step_decreases cap s o s' : reach cap s -> is_recv_op o = true -> chan_step s o = Some s' ->
  (rmeasure s' < rmeasure s)%nat.
Proof.
  intros H Ho Hst. destruct o; try discriminate; cbn [chan_step] in Hst.
  - destruct (c_rpc s) eqn:Er; try discriminate. destruct (c_queue s) as [|[m sz] t] eqn:Eq; try discriminate.
    inversion Hst; subst; clear Hst. unfold rmeasure. cbn [c_queue c_rpc]. rewrite Er, Eq. cbn [List.length]. lia.
  - destruct (c_rpc s) as [|m sz|] eqn:Er; try discriminate.
    pose proof (fetch_sub_ok cap s m sz H Er) as Hge.
    destruct (N.ltb_spec (c_usage s) sz) as [Hlt|_]; [lia|].
    inversion Hst; subst; clear Hst. unfold rmeasure. cbn [c_queue c_rpc]. rewrite Er. lia.
Qed.
Theorem waiting_sender_keeps_measure s m sz s' : c_spc s = SWaiting m sz -> chan_step s OLoad = Some s' ->
  rmeasure s' = rmeasure s.
Proof.
  intros Es Hst. cbn [chan_step] in Hst. rewrite Es in Hst. inversion Hst; subst. reflexivity.
Qed.
(* ... and when it is used up nothing else is queued, so the next iteration of the loop admits the sender *)
Theorem measure_zero_admits cap s m sz s' : reach cap s -> c_spc s = SWaiting m sz -> rmeasure s = 0%nat ->
  chan_step s OLoad = Some s' -> c_spc s' = SPush m sz.
Proof.
  intros H Es Hz Hst. destruct (admission_loop cap s m sz s' H Es Hst) as (_ & _ & Hadm). apply Hadm.
  unfold rmeasure in Hz. unfold others.
  destruct (c_queue s); [|cbn [List.length] in Hz; lia].
  destruct (c_rpc s); cbn [qbytes map sumN r_inflight]; try lia.
Qed.

(* the system as a whole is never stuck: the sender can always take its next step, and so can the
   receiver unless the queue is empty (where recv() legitimately blocks) *)
Theorem sender_never_stuck cap s : reach cap s ->
  match c_spc s with
  | SIdle => forall m sz, exists s', chan_step s (OFetchAdd m sz) = Some s'
  | SWaiting _ _ => exists s', chan_step s OLoad = Some s'
  | SPush _ _ => exists s', chan_step s OPush = Some s'
  | SUnderflow => False
  end.
Proof.
  intros H. pose proof (no_underflow cap s H) as [Hs _].
  destruct (c_spc s) eqn:Es; [intros m sz | | | congruence]; cbn [chan_step]; rewrite Es; eexists; reflexivity.
Qed.

(* bounded buffering: the bytes buffered for the receiver never exceed the capacity by more than
   one message (the largest handed in so far), and the counter by more than two *)
Theorem bounded cap s : reach cap s ->
  others s <= cap + c_maxsz s /\ c_usage s <= cap + 2 * c_maxsz s.
Proof.
  intros H. destruct (reach_inv cap s H) as (Hu & _ & _ & _ & _ & Hb & Hm & Hc).
  rewrite Hc in Hb. split; [exact Hb|]. unfold others in Hb. lia.
Qed.

(* the executable run function only visits reachable states *)
Theorem chan_run_reach cap os : forall s, reach cap s -> reach cap (fst (chan_run s os)).
Proof.
  induction os as [|o os IH]; intros s H; cbn [chan_run]; [exact H|].
  destruct (chan_step s o) as [s1|] eqn:E.
  - assert (H1 : reach cap s1) by (eapply reach_step; [exact H | exists o; exact E]).
    specialize (IH s1 H1). destruct (chan_run s1 os) as [s2 l]. exact IH.
  - specialize (IH s H). destruct (chan_run s os) as [s2 l]. exact IH.
Qed.

End WithM.
