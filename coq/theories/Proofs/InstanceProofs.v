(* The concrete instances used by the executable model satisfy the hypotheses of the general theorems:
   the growing chunker, the sorted listing function, Unix link-text normalisation. *)
From RJ Require Import Base.Prelude Base.OrderedPlan Model.Settings Model.Core Model.Fs Model.Paths Model.Sync Model.SyncTop
  Spec.PlanSpec Spec.Mirror Proofs.PlanCProofs Proofs.FsProofs Proofs.PathsProofs Proofs.PathLemmas Proofs.ExecProofs Proofs.MirrorProofs
  Proofs.ConfineAll.

Lemma chunk_grow_ok fuel : forall k s, chunk_grow fuel k s <> [] /\ concat (chunk_grow fuel k s) = s.
Proof.
  induction fuel as [|fuel IH]; intros k s; cbn [chunk_grow].
  - split; [discriminate|]. cbn. apply app_nil_r.
  - destruct (Nat.leb (length s) (buf_size k)).
    + split; [discriminate|]. cbn. apply app_nil_r.
    + split; [discriminate|]. cbn [concat]. destruct (IH (S k) (skipn (buf_size k) s)) as [_ ->]. apply firstn_skipn.
Qed.
Theorem chunk_real_ok d : chunk_real d <> [] /\ concat (chunk_real d) = d.
Proof. apply chunk_grow_ok. Qed.

Definition unique_keys (f : fs) : Prop := NoDup (map fst f).

Lemma fget_in f p n : unique_keys f -> (In (p, n) f <-> fget f p = Some n).
Proof.
  intros Hu. split; [apply alookup_in; exact Hu | apply alookup_some_in].
Qed.

Section ListFs.
Variable now_z : N -> Z.
Variable incl : path -> bool.
Variable normalize : str -> target.
Notation entry_of := (entry_of now_z normalize).
Notation list_fs := (list_fs now_z incl normalize).

Definition pick (vis : path -> bool) (d : nat) (l : fs) : listing :=
  flat_map (fun e => if Nat.eqb (length (fst e)) d && vis (fst e) then [(fst e, entry_of (snd e))] else []) l.

Lemma pick_in vis d l p e : In (p, e) (pick vis d l) <->
  exists n, In (p, n) l /\ length p = d /\ vis p = true /\ e = entry_of n.
Proof.
  unfold pick. rewrite in_flat_map. split.
  - intros ([q n] & Hin & H). cbn [fst snd] in H.
    destruct (Nat.eqb (length q) d) eqn:El; cbn [andb] in H; [|destruct H].
    destruct (vis q) eqn:Ev; [|destruct H]. destruct H as [H|[]]. inversion H; subst.
    exists n. apply Nat.eqb_eq in El. auto.
  - intros (n & Hin & Hl & Hv & ->). exists (p, n). split; [exact Hin|]. cbn [fst snd].
    rewrite (proj2 (Nat.eqb_eq _ _) Hl), Hv. left; reflexivity.
Qed.

Lemma pick_keys_subseq vis d l : subseq path (lkeys (pick vis d l)) (map fst l).
Proof.
  unfold pick, lkeys. induction l as [|[q n] l IH]; cbn [flat_map map]; [constructor|].
  rewrite map_app. cbn [fst snd].
  destruct (Nat.eqb (length q) d && vis q); cbn [map app fst]; [apply ss_take|apply ss_skip]; exact IH.
Qed.

Lemma nodup_flat_map_levels (g : nat -> listing) ds :
  NoDup ds -> (forall d, NoDup (lkeys (g d))) ->
  (forall d p, In p (lkeys (g d)) -> length p = d) ->
  NoDup (lkeys (flat_map g ds)).
Proof.
  intros Hds Hg Hlen. induction ds as [|d ds IH]; cbn [flat_map]; [constructor|].
  inversion Hds as [|? ? Hn Hds']; subst. unfold lkeys in *. rewrite map_app.
  apply NoDup_app_intro; auto.
  intros p H1 H2. apply Hlen in H1. apply in_map_iff in H2 as ([q e] & <- & Hq). cbn [fst] in H1.
  apply in_flat_map in Hq as (d' & Hd' & Hq). assert (length q = d') by (apply Hlen; change q with (fst (q, e)); apply in_map; exact Hq).
  subst. contradiction.
Qed.

Lemma length_le_max_depth (f : fs) p n : In (p, n) f -> length p <= max_depth f.
Proof.
  unfold max_depth. induction f as [|[q m] f IH]; intros Hin; [contradiction|]. cbn [fold_right fst].
  destruct Hin as [H|H]; [inversion H; subst; lia | specialize (IH H); lia].
Qed.

(* without a folder at the root, a well-formed tree has nothing below it to list *)
Lemma valid_listing_nil f : wf_fs f -> fget f [] <> Some NFolder -> valid_listing now_z incl normalize f [].
Proof.
  intros Hwf Hr. split; [constructor|]. split; [intros []|]. intros p e. split; [intros []|].
  intros (Hv & n & En & _). exfalso. destruct p as [|c p]; [discriminate|].
  apply Hr, (Hwf _ _ En), nil_strict_prefix. discriminate.
Qed.

Theorem list_fs_valid f : unique_keys f -> wf_fs f -> valid_listing now_z incl normalize f (list_fs f).
Proof.
  intros Hu Hwf.
  assert (Hshape : list_fs f = match fget f [] with
                               | Some NFolder => flat_map (fun d => pick (visible incl f) d f) (seq 1 (max_depth f))
                               | _ => [] end) by reflexivity.
  rewrite Hshape. clear Hshape.
  destruct (fget f []) as [[| |]|] eqn:Er.
  1,3,4: apply valid_listing_nil; [exact Hwf|congruence].
  split; [|split].
  - apply nodup_flat_map_levels.
    + apply seq_NoDup.
    + intros d. eapply subseq_nodup; [apply pick_keys_subseq|exact Hu].
    + intros d p Hp. apply in_map_iff in Hp as ([q e] & <- & Hq). apply pick_in in Hq as (n & _ & Hl & _). exact Hl.
  - intros Hin. apply in_map_iff in Hin as ([q e] & Hq & Hin). cbn [fst] in Hq. subst q.
    apply in_flat_map in Hin as (d & Hd & Hin). apply pick_in in Hin as (n & _ & Hl & _).
    apply in_seq in Hd. cbn in Hl. lia.
  - intros p e. rewrite in_flat_map. split.
    + intros (d & Hd & Hin). apply pick_in in Hin as (n & Hin & _ & Hv & ->).
      split; [exact Hv|]. exists n. split; [apply fget_in; auto|reflexivity].
    + intros (Hv & n & En & ->). apply fget_in in En; [|exact Hu].
      exists (length p). split.
      * apply in_seq. pose proof (length_le_max_depth f p n En).
        destruct p; [discriminate|]. cbn [length] in *. lia.
      * apply pick_in. exists n. auto.
Qed.


(* the sorted listing reports parents first *)
Lemma before_levels (g : nat -> list path) : forall n s a b da db,
  s <= da -> da < db -> db < s + n -> In a (g da) -> In b (g db) ->
  before a b (flat_map g (seq s n)).
Proof.
  induction n as [|n IH]; intros s a b da db H1 H2 H3 Ha Hb; [lia|].
  cbn [seq flat_map]. destruct (Nat.eq_dec da s) as [->|Hne].
  - apply before_app_r; [exact Ha|]. apply in_flat_map. exists db. split; [apply in_seq; lia|exact Hb].
  - apply before_app_rr. apply (IH (S s) a b da db); auto; lia.
Qed.

Theorem list_fs_parents_first f :
  parents_first (lkeys (side_listing now_z normalize f (list_fs f))).
Proof.
  unfold Mirror.side_listing. destruct (fget f []) as [n|] eqn:Er; [|intros a b []].
  cbn [lkeys map fst]. intros a b Ha Hb Hpre.
  destruct Hb as [<-|Hb].
  { (* b is the root: it has no strict prefix *)
    apply strict_prefix_iff in Hpre as (k & Hk & _). cbn in Hk. lia. }
  destruct Ha as [<-|Ha]; [apply before_here; exact Hb|].
  apply before_skip.
  destruct n; try contradiction.
  assert (Hshape : list_fs f = match fget f [] with
                               | Some NFolder => flat_map (fun d => pick (visible incl f) d f) (seq 1 (max_depth f))
                               | _ => [] end) by reflexivity.
  rewrite Hshape, Er in *. clear Hshape.
  set (g := fun d => lkeys (pick (visible incl f) d f)).
  assert (Hflat : forall ds, lkeys (flat_map (fun d => pick (visible incl f) d f) ds) = flat_map g ds).
  { induction ds as [|d ds IH]; cbn [flat_map]; [reflexivity|]. unfold lkeys in *. rewrite map_app, IH. reflexivity. }
  unfold lkeys in Ha, Hb. fold (lkeys (flat_map (fun d => pick (visible incl f) d f) (seq 1 (max_depth f)))) in Ha, Hb |- *.
  rewrite Hflat in *.
  assert (Hlen : forall d p, In p (g d) -> length p = d).
  { intros d p Hp. unfold g in Hp. apply in_map_iff in Hp as ([q e] & <- & Hq). apply pick_in in Hq as (nn & _ & Hl & _). exact Hl. }
  apply in_flat_map in Ha as (da & Hda & Ha). apply in_flat_map in Hb as (db & Hdb & Hb).
  apply in_seq in Hda. apply in_seq in Hdb.
  assert (length a < length b).
  { apply strict_prefix_iff in Hpre as (k & Hk & ->). rewrite firstn_length. lia. }
  rewrite (Hlen _ _ Ha), (Hlen _ _ Hb) in H.
  apply (before_levels g (max_depth f) 1 a b da db); auto; lia.
Qed.

End ListFs.

(* the domain outside known finding F7: every source link text is well-formed UTF-8 *)
Definition links_utf8 (S : fs) : Prop := forall p t k, fget S p = Some (NLink t k) -> utf8_valid t = true.
Lemma links_utf8_roundtrip S : links_utf8 S -> links_roundtrip normalize_unix Unix S.
Proof. intros H p t k E. apply normalize_unix_idem. apply lossy_valid. eapply H; eauto. Qed.

Theorem run_top_mirror cfg S D a ans bits ex ft :
  unique_keys S -> wf_fs S -> unique_keys D -> wf_fs D -> src_times_set S -> links_utf8 S ->
  let r := run_top cfg S D a ans bits ex ft in
  r_ok r = true -> r_skipped r = [] -> r_root_skipped r = false -> cf_dry cfg = false ->
  ExecProofs.no_through (d_events (r_dest r)) -> cf_fl cfg = Unix ->
  mirror now_far (excl_incl ex) normalize_unix (cf_diff cfg) Unix S D (d_fs (r_dest r)).
Proof.
  intros HuS HwS HuD HwD Hts Hlk. cbv zeta. unfold run_top. intros Hok Hsk Hrs Hdry Hnt Hfl.
  exact (mirror_theorem now_far (excl_incl ex) normalize_unix chunk_real chunk_real_ok Unix
           cfg S (world D a []) ans bits _ _ ft
           (list_fs_valid now_far (excl_incl ex) normalize_unix S HuS HwS)
           (list_fs_valid now_far (excl_incl ex) normalize_unix D HuD HwD)
           HwS Hts (links_utf8_roundtrip S Hlk) eq_refl Hok Hsk Hrs Hdry Hnt Hfl).
Qed.

(* the executable model never resolves a path through a destination link, whatever is skipped and whatever fails
   (Proofs/ConfineAll.v), and so mirrors whenever it returns Ok without skips *)
Theorem run_top_never_through cfg S D a ans bits ex ft :
  unique_keys S -> wf_fs S -> unique_keys D -> wf_fs D ->
  no_through (d_events (r_dest (run_top cfg S D a ans bits ex ft))).
Proof.
  intros HuS HwS HuD HwD. unfold run_top.
  exact (no_run_goes_through_a_link now_far (excl_incl ex) normalize_unix chunk_real
           cfg S (world D a []) ans bits _ _ ft
           (list_fs_valid now_far (excl_incl ex) normalize_unix S HuS HwS)
           (list_fs_valid now_far (excl_incl ex) normalize_unix D HuD HwD)
           (list_fs_parents_first now_far (excl_incl ex) normalize_unix S)
           (list_fs_parents_first now_far (excl_incl ex) normalize_unix D)
           HwD eq_refl).
Qed.

Theorem run_top_all_confined cfg S D a ans bits ex ft :
  unique_keys S -> wf_fs S -> unique_keys D -> wf_fs D ->
  let r := run_top cfg S D a ans bits ex ft in
  r_skipped r = [] -> no_through (d_events (r_dest r)).
Proof. intros; apply run_top_never_through; assumption. Qed.

Theorem run_top_mirror_unconditional cfg S D a ans bits ex ft :
  unique_keys S -> wf_fs S -> unique_keys D -> wf_fs D -> src_times_set S -> links_utf8 S ->
  let r := run_top cfg S D a ans bits ex ft in
  r_ok r = true -> r_skipped r = [] -> r_root_skipped r = false -> cf_dry cfg = false -> cf_fl cfg = Unix ->
  mirror now_far (excl_incl ex) normalize_unix (cf_diff cfg) Unix S D (d_fs (r_dest r)).
Proof.
  intros HuS HwS HuD HwD Hts Hlk. cbv zeta. unfold run_top. intros Hok Hsk Hrs Hdry Hfl.
  exact (sync_mirrors now_far (excl_incl ex) normalize_unix chunk_real chunk_real_ok Unix cfg S (world D a []) ans bits _ _ ft
           (list_fs_valid now_far (excl_incl ex) normalize_unix S HuS HwS)
           (list_fs_valid now_far (excl_incl ex) normalize_unix D HuD HwD)
           (list_fs_parents_first now_far (excl_incl ex) normalize_unix S)
           (list_fs_parents_first now_far (excl_incl ex) normalize_unix D)
           HwS HwD Hts (links_utf8_roundtrip S Hlk) eq_refl eq_refl Hok Hsk Hrs Hdry Hfl).
Qed.
