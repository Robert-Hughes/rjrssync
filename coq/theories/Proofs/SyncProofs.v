(* Facts about the whole-sync model: the phases of a run, the plan as a function of the two trees, frame
   property of a run, what a failed confirmation leaves behind, prompts precede every change. *)
From RJ Require Import Base.Prelude Base.OrderedPlan Model.Settings Model.Core Model.Fs Model.Sync
  Spec.PlanSpec Spec.Mirror Proofs.PlanCProofs Proofs.FsProofs Proofs.StepProofs Proofs.ConfirmProofs.

Section SyncFacts.
Variable now_z : N -> Z.
Variable incl : path -> bool.
Variable normalize : str -> target.
Variable chunker : str -> list str.

Notation sync_one := (sync_one now_z normalize chunker).
Notation entry_of := (entry_of now_z normalize).
Notation valid_listing := (valid_listing now_z incl normalize).
Notation side_listing := (side_listing now_z normalize).
Notation takes_part := (takes_part incl).

Lemma do_step_sent fl ft r s :
  exists l, rs_sent (do_step fl ft r s) = rs_sent r ++ l /\
    (forall p, (forall c, In c l -> cmd_path c <> Some p) ->
       fget (d_fs (rs_d (do_step fl ft r s))) p = fget (d_fs (rs_d r)) p) /\
    (forall c, In c l -> s = DestCmd c).
Proof.
  unfold do_step. destruct s as [c|p0].
  - destruct (mutating c && match ft_stop ft with Some n => Nat.leb n (rs_mut r) | None => false end) eqn:Estop.
    { exists []. cbn [fst snd rs_sent rs_d]. rewrite app_nil_r. repeat split; auto; try (intros ? []). }
    exists [c].
    destruct (mutating c && negb (is_chunk c) && mem_nat (rs_mut r) (ft_dest ft)) eqn:Einj; cbn [fst snd].
    + cbn [rs_sent rs_d]. split; [reflexivity|]. split; [|intros c' [<-|[]]; reflexivity].
      intros p _. destruct c; reflexivity.
    + destruct (doer_exec fl (rs_d r) c) as [d' err] eqn:E. cbn [fst snd].
      destruct err; cbn [rs_sent rs_d]; repeat split; auto;
        try (intros p Hp; eapply doer_exec_frame; eauto; apply Hp; left; reflexivity);
        intros c' [<-|[]]; reflexivity.
  - exists []. cbn [rs_sent rs_d]. rewrite app_nil_r. repeat split; auto; try (intros ? []).
Qed.

Lemma run_step_sent fl ft r s :
  exists l, rs_sent (run_step fl ft r s) = rs_sent r ++ l /\
    (forall p, (forall c, In c l -> cmd_path c <> Some p) ->
       fget (d_fs (rs_d (run_step fl ft r s))) p = fget (d_fs (rs_d r)) p) /\
    (forall c, In c l -> s = DestCmd c).
Proof.
  destruct (run_step_cases fl ft r s) as [-> | ->]; [|apply do_step_sent].
  exists []. rewrite app_nil_r. repeat split; auto; intros ? [].
Qed.

Lemma run_steps_sent fl ft steps : forall r,
  exists l, rs_sent (run_steps fl ft r steps) = rs_sent r ++ l /\
    (forall p, (forall c, In c l -> cmd_path c <> Some p) ->
       fget (d_fs (rs_d (run_steps fl ft r steps))) p = fget (d_fs (rs_d r)) p) /\
    (forall c, In c l -> In (DestCmd c) steps).
Proof.
  intros r0.
  apply (run_steps_inv_in fl ft (fun r => exists l, rs_sent r = rs_sent r0 ++ l /\
           (forall p, (forall c, In c l -> cmd_path c <> Some p) -> fget (d_fs (rs_d r)) p = fget (d_fs (rs_d r0)) p) /\
           (forall c, In c l -> In (DestCmd c) steps))).
  - intros r s Hs (l1 & E1 & F1 & S1). destruct (run_step_sent fl ft r s) as (l2 & E2 & F2 & S2).
    exists (l1 ++ l2). rewrite E2, E1, app_assoc. repeat split; auto.
    + intros p Hp. rewrite F2, F1; auto; intros c Hc; apply Hp; apply in_or_app; auto.
    + intros c Hc. apply in_app_or in Hc as [Hc|Hc]; [apply S1, Hc|rewrite <- (S2 c Hc); exact Hs].
  - exists []. rewrite app_nil_r. repeat split; auto; intros ? [].
Qed.

(* a path that none of the commands sent during these steps names is unchanged - and none sent before them names it *)
Lemma run_steps_frame fl ft steps r p :
  (forall c, In c (rs_sent (run_steps fl ft r steps)) -> cmd_path c <> Some p) ->
  fget (d_fs (rs_d (run_steps fl ft r steps))) p = fget (d_fs (rs_d r)) p /\
  (forall c, In c (rs_sent r) -> cmd_path c <> Some p).
Proof.
  destruct (run_steps_sent fl ft steps r) as (l & E & F & _). rewrite E. intros Hp.
  split; [apply F|]; intros c Hc; apply Hp; apply in_or_app; auto.
Qed.

(* what each doer is sent to make it report its side: SetRoot, and GetEntries if the root is a folder *)
Definition listing_trace (root : option entry) : list cmd :=
  CSetRoot :: match root with Some EFolder => [CGetEntries] | _ => [] end.
Lemma listing_trace_no_mut root : filter mutating (listing_trace root) = [].
Proof. destruct root as [[]|]; reflexivity. Qed.
Lemma listing_trace_no_get root p : ~ In (CGetFileContent p) (listing_trace root).
Proof. intros [H|H]; [discriminate|]. destruct root as [[]|]; cbn in H; try contradiction. destruct H as [H|[]]; discriminate. Qed.

(* the root gate of sync_impl (boss_sync.rs:396-426): go on with the remaining answers, or stop (true = skipped) *)
Definition root_gate (diff : bool) (root : beh) (sroot : entry) (droot : option entry) (ans : list answer)
  : (list answer * list prompt) + (bool * list prompt) :=
  match droot with
  | Some d => if needs_delete diff sroot d then
                match resolve_root root ans with
                | (BAct, ans', shown) => inl (ans', if shown then [PRoot] else [])
                | (BSkip, _, shown) => inr (true, if shown then [PRoot] else [])
                | (_, _, shown) => inr (false, if shown then [PRoot] else [])
                end
              else inl (ans, [])
  | None => inl (ans, [])
  end.

Definition arrivals (sroot : entry) (droot : option entry) (bits : list bool) (ls ld : listing) : list arrival_t :=
  FromSrc path entry [] sroot :: match droot with Some d => [FromDest path entry [] d] | None => [] end ++
  interleave bits (match sroot with EFolder => ls | _ => [] end) (match droot with Some EFolder => ld | _ => [] end).

(* the boss's state when both listings are in: a missing destination root has had its ancestors created *)
Definition start_steps (dry : bool) (droot : option entry) : list bstep :=
  match droot with None => if dry then [] else [DestCmd CCreateRootAncestors] | Some _ => [] end.
Definition start_state (fl : flavour) (ft : faults) (dry : bool) (D : dstate) (sroot : entry) (droot : option entry) : rstate :=
  run_steps fl ft (mkR D (listing_trace droot) (listing_trace (Some sroot)) [] false 0 0 None) (start_steps dry droot).

Lemma start_steps_shape dry droot : start_steps dry droot = [] \/ start_steps dry droot = [DestCmd CCreateRootAncestors].
Proof. destruct droot; [left; reflexivity|]. destruct dry; [left|right]; reflexivity. Qed.

Lemma start_then fl ft dry D sroot droot steps :
  run_steps fl ft (start_state fl ft dry D sroot droot) steps =
  run_steps fl ft (mkR D (listing_trace droot) (listing_trace (Some sroot)) [] false 0 0 None) (start_steps dry droot ++ steps).
Proof. unfold start_state, run_steps. symmetry. apply fold_left_app. Qed.

Lemma start_state_idle fl ft dry D sroot droot : dry = true \/ droot <> None ->
  start_state fl ft dry D sroot droot = mkR D (listing_trace droot) (listing_trace (Some sroot)) [] false 0 0 None.
Proof. unfold start_state, start_steps. destruct droot; [reflexivity|]. intros [->|H]; [reflexivity|congruence]. Qed.

(* whatever fault hits CreateRootAncestors, the tree and the open transfer stay *)
Lemma start_state_tree fl ft dry D sroot droot :
  let st := rs_d (start_state fl ft dry D sroot droot) in
  d_fs st = d_fs D /\ d_open st = d_open D /\
  (d_events st = d_events D \/ d_events st = d_events D ++ [CreatedAncestors]).
Proof.
  unfold start_state, start_steps. destruct droot; [cbn; auto|]. destruct dry; [cbn; auto|].
  cbn [run_steps fold_left]. set (r0 := mkR D _ _ [] false 0 0 None).
  assert (H : rs_d (run_step fl ft r0 (DestCmd CCreateRootAncestors)) = D \/
              rs_d (run_step fl ft r0 (DestCmd CCreateRootAncestors)) = fst (doer_exec fl D CCreateRootAncestors)).
  { unfold run_step, do_step, r0. cbn [rs_srcfail rs_budget rs_d inj_state].
    destruct (mutating _ && match ft_stop ft with Some n => _ | None => false end); [left; reflexivity|].
    destruct (mutating _ && negb _ && _); [left; reflexivity|right]. destruct (snd _); reflexivity. }
  destruct H as [-> | ->]; [auto|]. cbn [doer_exec]. destruct (d_anc D); cbn; auto.
Qed.

(* The run from the moment the root gate is passed ([r1] the boss's state, [ans1] the answers left, [arr] the arrivals):
   the steps of its execution phase, and its result. *)
Inductive planned_case (cfg : config) (S : fs) (ft : faults) (r1 : rstate) (np1 : list prompt) (ans1 : list answer)
          (arr : list arrival_t) : list bstep -> result -> Prop :=
| pc_panic :
    actions_of (cf_diff cfg) (beh_eqb (b_same (cf_b cfg)) BSkip) arr = None ->
    planned_case cfg S ft r1 np1 ans1 arr [] (fail_result (rs_d r1) (rs_src r1) (rs_sent r1) np1 false false true)
| pc_refused acts :
    actions_of (cf_diff cfg) (beh_eqb (b_same (cf_b cfg)) BSkip) arr = Some acts ->
    confirm (cf_b cfg) ans1 acts = CFail ->
    planned_case cfg S ft r1 np1 ans1 arr []
      (mkRes false (rs_d r1) (rs_src r1) (rs_sent r1) (rs_errs r1) false stats0 [] np1 [] false true false)
| pc_dry acts acts' skipped b2 a2 np :
    actions_of (cf_diff cfg) (beh_eqb (b_same (cf_b cfg)) BSkip) arr = Some acts ->
    confirm (cf_b cfg) ans1 acts = CDone acts' skipped b2 a2 np -> cf_dry cfg = true ->
    planned_case cfg S ft r1 np1 ans1 arr []
      (mkRes true (rs_d r1) (rs_src r1) (rs_sent r1) [] false (plan_stats acts') (would_lines acts') (np1 ++ np)
             skipped false false false)
| pc_ran acts acts' skipped b2 a2 np :
    actions_of (cf_diff cfg) (beh_eqb (b_same (cf_b cfg)) BSkip) arr = Some acts ->
    confirm (cf_b cfg) ans1 acts = CDone acts' skipped b2 a2 np -> cf_dry cfg = false ->
    planned_case cfg S ft r1 np1 ans1 arr (exec_steps chunker S acts')
      (let r2 := run_steps (cf_fl cfg) ft r1 (exec_steps chunker S acts') in
       mkRes (match rs_errs r2 with [] => negb (rs_srcfail r2) | _ => false end)
             (rs_d r2) (rs_src r2) (rs_sent r2) (rs_errs r2) (rs_srcfail r2)
             (plan_stats acts') [] (np1 ++ np) skipped false false false).

(* The phases of a sync: the boss state from which steps are run against the destination and those steps
   (what Proofs/CrashMain.sync_plan computes), and the result. *)
Inductive sync_case (cfg : config) (S : fs) (D : dstate) (ans : list answer) (bits : list bool) (ls ld : listing)
          (ft : faults) : rstate * list bstep -> result -> Prop :=
| sc_no_source :
    fget S [] = None ->
    sync_case cfg S D ans bits ls ld ft (mkR D [] [] [] false 0 0 None, []) (fail_result D [CSetRoot] [] [] false false false)
| sc_root_stop sn skip np :
    fget S [] = Some sn ->
    root_gate (cf_diff cfg) (cf_root cfg) (entry_of sn) (option_map entry_of (fget (d_fs D) [])) ans = inr (skip, np) ->
    sync_case cfg S D ans bits ls ld ft (mkR D [] [] [] false 0 0 None, []) (fail_result D [CSetRoot] [CSetRoot] np false skip false)
| sc_planned sn ans1 np1 steps r :
    fget S [] = Some sn ->
    root_gate (cf_diff cfg) (cf_root cfg) (entry_of sn) (option_map entry_of (fget (d_fs D) [])) ans = inl (ans1, np1) ->
    planned_case cfg S ft
      (start_state (cf_fl cfg) ft (cf_dry cfg) D (entry_of sn) (option_map entry_of (fget (d_fs D) []))) np1 ans1
      (arrivals (entry_of sn) (option_map entry_of (fget (d_fs D) [])) bits ls ld) steps r ->
    sync_case cfg S D ans bits ls ld ft
      (mkR D (listing_trace (option_map entry_of (fget (d_fs D) []))) (listing_trace (Some (entry_of sn))) [] false 0 0 None,
       start_steps (cf_dry cfg) (option_map entry_of (fget (d_fs D) [])) ++ steps) r.

Theorem sync_one_cases cfg S D ans bits ls ld ft :
  exists pl, sync_case cfg S D ans bits ls ld ft pl (sync_one cfg S D ans bits ls ld ft).
Proof.
  unfold Sync.sync_one. destruct (fget S []) as [sn|] eqn:Hs; [|eexists; apply sc_no_source; exact Hs]. cbv zeta.
  match goal with |- context [match ?g with inl _ => _ | inr _ => _ end] => destruct g as [[ans1 np1]|[skip np]] eqn:Hg end.
  2:{ eexists. destruct skip; exact (sc_root_stop cfg S D ans bits ls ld ft sn _ np Hs Hg). }
  destruct (actions_of _ _ _) as [acts|] eqn:Ha.
  2:{ eexists. eapply (sc_planned cfg S D ans bits ls ld ft sn ans1 np1 _ _ Hs Hg). apply pc_panic. exact Ha. }
  destruct (confirm _ _ _) as [|acts' skipped b2 a2 np] eqn:Hc.
  { eexists. eapply (sc_planned cfg S D ans bits ls ld ft sn ans1 np1 _ _ Hs Hg). eapply pc_refused; eassumption. }
  eexists (_, _ ++ if cf_dry cfg then [] else exec_steps chunker S acts').
  apply (sc_planned cfg S D ans bits ls ld ft sn ans1 np1 _ _ Hs Hg).
  destruct (cf_dry cfg) eqn:Hd; [eapply pc_dry|eapply pc_ran]; eassumption.
Qed.

Lemma srcs_app_c (a b : list arrival_t) : srcs path entry (a ++ b) = srcs path entry a ++ srcs path entry b.
Proof. unfold srcs. apply flat_map_app. Qed.
Lemma dests_app_c (a b : list arrival_t) : dests path entry (a ++ b) = dests path entry a ++ dests path entry b.
Proof. unfold dests. apply flat_map_app. Qed.
Lemma srcs_map_src (ls : listing) : srcs path entry (map (fun e => FromSrc path entry (fst e) (snd e)) ls) = ls.
Proof. induction ls as [|[p e] ls IH]; cbn; [reflexivity|]. f_equal. exact IH. Qed.
Lemma dests_map_src (ls : listing) : dests path entry (map (fun e => FromSrc path entry (fst e) (snd e)) ls) = [].
Proof. induction ls as [|[p e] ls IH]; cbn; auto. Qed.
Lemma srcs_map_dest (ld : listing) : srcs path entry (map (fun e => FromDest path entry (fst e) (snd e)) ld) = [].
Proof. induction ld as [|[p e] l IH]; cbn; auto. Qed.
Lemma dests_map_dest (ld : listing) : dests path entry (map (fun e => FromDest path entry (fst e) (snd e)) ld) = ld.
Proof. induction ld as [|[p e] l IH]; cbn; [reflexivity|]. f_equal. exact IH. Qed.

Lemma srcs_cons_src p e l : srcs path entry (FromSrc path entry p e :: l) = (p, e) :: srcs path entry l.
Proof. reflexivity. Qed.
Lemma dests_cons_src p e l : dests path entry (FromSrc path entry p e :: l) = dests path entry l.
Proof. reflexivity. Qed.

Lemma interleave_nil_l bits ld : interleave bits [] ld = map (fun e => FromDest path entry (fst e) (snd e)) ld.
Proof. destruct bits as [|[|] bs], ld as [|e ld]; reflexivity. Qed.
Lemma interleave_nil_r bits ls : interleave bits ls [] = map (fun e => FromSrc path entry (fst e) (snd e)) ls.
Proof. destruct bits as [|[|] bs], ls as [|e ls]; reflexivity. Qed.

Lemma interleave_projections bits : forall (ls ld : listing),
  srcs path entry (interleave bits ls ld) = ls /\ dests path entry (interleave bits ls ld) = ld.
Proof.
  induction bits as [|b bits IH]; intros ls ld;
    (destruct ls as [|[p e] ls]; [rewrite interleave_nil_l, srcs_map_dest, dests_map_dest; auto|]);
    (destruct ld as [|[p' e'] ld]; [rewrite interleave_nil_r, srcs_map_src, dests_map_src; auto|]).
  - cbn [interleave]. rewrite srcs_app_c, dests_app_c, srcs_map_src, dests_map_src, srcs_map_dest, dests_map_dest, app_nil_r. auto.
  - destruct b; cbn [interleave fst snd].
    + destruct (IH ls ((p', e') :: ld)) as [I1 I2]. split; [exact (f_equal (cons (p, e)) I1)|exact I2].
    + destruct (IH ((p, e) :: ls) ld) as [I1 I2]. split; [exact I1|exact (f_equal (cons (p', e')) I2)].
Qed.

Lemma arrivals_srcs S sn droot bits ls ld : fget S [] = Some sn ->
  srcs path entry (arrivals (entry_of sn) droot bits ls ld) = side_listing S ls.
Proof.
  intros Hs. unfold arrivals, Mirror.side_listing. rewrite Hs.
  rewrite srcs_cons_src, srcs_app_c, (proj1 (interleave_projections bits _ _)). destruct droot, sn; reflexivity.
Qed.
Lemma arrivals_dests (D : fs) sroot bits ls ld :
  dests path entry (arrivals sroot (option_map entry_of (fget D [])) bits ls ld) = side_listing D ld.
Proof.
  unfold arrivals, Mirror.side_listing.
  rewrite dests_cons_src, dests_app_c, (proj2 (interleave_projections bits _ _)). destruct (fget D []) as [[]|]; reflexivity.
Qed.

Theorem arrivals_plan diff ss S (D : fs) sn bits ls ld :
  fget S [] = Some sn -> NoDup (lkeys (side_listing S ls)) -> NoDup (lkeys (side_listing D ld)) ->
  actions_of diff ss (arrivals (entry_of sn) (option_map entry_of (fget D [])) bits ls ld) =
  Some (plan_spec diff ss (side_listing S ls) (side_listing D ld)).
Proof.
  intros Hs HS HD. rewrite <- (arrivals_srcs S sn (option_map entry_of (fget D [])) bits ls ld Hs) in *.
  rewrite <- (arrivals_dests D (entry_of sn) bits ls ld) in *. apply actions_of_spec; assumption.
Qed.

Lemma side_listing_nodup f (L : listing) : NoDup (lkeys L) -> ~ In [] (lkeys L) -> NoDup (lkeys (side_listing f L)).
Proof.
  intros Hnd Hr. unfold Mirror.side_listing. destruct (fget f []) as [[]|]; cbn [lkeys map fst]; constructor; auto; constructor.
Qed.

Lemma side_listing_spec f L : valid_listing f L ->
  NoDup (lkeys (side_listing f L)) /\
  (forall p e, In (p, e) (side_listing f L) -> exists n, fget f p = Some n /\ e = entry_of n) /\
  (forall p, In p (lkeys (side_listing f L)) <-> (takes_part f p /\ fget f p <> None)).
Proof.
  intros (Hnd & Hnr & Hval). split; [apply side_listing_nodup; assumption|]. unfold Mirror.side_listing.
  destruct (fget f []) as [n|] eqn:Er.
  2:{ split; [intros p e []|]. intros p. split; [intros []|].
      intros [[->|[Hf _]] Hne]; congruence. }
  split.
  - intros p e [Heq|Hin].
    + inversion Heq; subst. exists n. auto.
    + destruct n; try contradiction. apply (proj1 (Hval p e)) in Hin. destruct Hin as (_ & n' & E & He). exists n'. auto.
  - intros p. split.
    + cbn [lkeys map fst]. intros [<-|Hin].
      * split; [left; reflexivity | congruence].
      * destruct n; try contradiction. apply in_map_iff in Hin as ([p' e] & <- & Hin).
        apply (proj1 (Hval p' e)) in Hin. destruct Hin as (Hv & n' & E & _). cbn [fst]. split; [right; auto | congruence].
    + intros [[->|[Hf Hv]] Hne].
      * left. reflexivity.
      * right. rewrite Er in Hf. inversion Hf; subst. destruct (fget f p) as [n'|] eqn:Ep; [|congruence].
        change p with (fst (p, entry_of n')). apply in_map. apply Hval. split; auto. exists n'. auto.
Qed.

Corollary arrivals_spec diff ss S (D : fs) sn bits ls ld :
  valid_listing S ls -> valid_listing D ld -> fget S [] = Some sn ->
  actions_of diff ss (arrivals (entry_of sn) (option_map entry_of (fget D [])) bits ls ld) =
  Some (plan_spec diff ss (side_listing S ls) (side_listing D ld)).
Proof. intros HvS HvD Hs. apply arrivals_plan; [exact Hs|apply side_listing_spec; assumption..]. Qed.

Theorem sync_frame cfg S D ans bits ls ld ft p :
  let r := sync_one cfg S D ans bits ls ld ft in
  (forall c, In c (r_dest_trace r) -> cmd_path c <> Some p) ->
  fget (d_fs (r_dest r)) p = fget (d_fs D) p.
Proof.
  cbv zeta.
  assert (Hr1 : forall fl dry sroot droot, (forall c, In c (rs_sent (start_state fl ft dry D sroot droot)) -> cmd_path c <> Some p) ->
                  fget (d_fs (rs_d (start_state fl ft dry D sroot droot))) p = fget (d_fs D) p).
  { intros fl dry sroot droot Hp. exact (proj1 (run_steps_frame fl ft _ _ p Hp)). }
  destruct (sync_one_cases cfg S D ans bits ls ld ft) as (pl & [Hs|sn skip np Hs Hg|sn ans1 np1 steps r Hs Hg
    [Ha|acts Ha Hc|acts acts' sk b2 a2 np Ha Hc Hd|acts acts' sk b2 a2 np Ha Hc Hd]]);
    try reflexivity; cbn [fail_result r_dest r_dest_trace]; try apply Hr1.
  intros Hp. destruct (run_steps_frame _ _ _ _ p Hp) as [-> Hp1]. apply Hr1. exact Hp1.
Qed.

Lemma copy_dec_nil diff ss e : copy_dec diff ss [] e = [(fst e, (snd e, NotOnDest))].
Proof. destruct e; reflexivity. Qed.

Lemma plan_no_dest diff ss (Ls : listing) :
  a_delete (plan_spec diff ss Ls []) = [] /\
  Forall (fun e => snd (snd e) = NotOnDest) (a_copy (plan_spec diff ss Ls [])).
Proof.
  split; [reflexivity|]. cbn [plan_spec a_copy].
  induction Ls as [|e Ls IH]; cbn [flat_map]; [constructor|].
  rewrite copy_dec_nil. constructor; [reflexivity|exact IH].
Qed.

(* without a destination root the plan only creates new entries, so the confirmation is the identity *)
Lemma absent_dest_root_plan diff ss S (D : fs) sn bits ls ld b ans acts :
  NoDup (lkeys ls) -> ~ In [] (lkeys ls) -> fget S [] = Some sn -> fget D [] = None ->
  actions_of diff ss (arrivals (entry_of sn) (option_map entry_of (fget D [])) bits ls ld) = Some acts ->
  confirm b ans acts = CDone acts [] b ans [].
Proof.
  intros Hnd Hroot Hs HD Ha.
  assert (E : side_listing D ld = []) by (unfold Mirror.side_listing; rewrite HD; reflexivity).
  rewrite (arrivals_plan diff ss S D sn bits ls ld Hs), E in Ha.
  - inversion Ha; subst acts. destruct (plan_no_dest diff ss (side_listing S ls)). apply confirm_new_only; assumption.
  - apply side_listing_nodup; assumption.
  - rewrite E. constructor.
Qed.

Definition decision_failure (r : result) : Prop :=
  r_ok r = false /\ r_errs r = [] /\ r_src_failed r = false /\ r_panic r = false.

Theorem decision_failure_is_clean cfg S D ans bits ls ld ft :
  NoDup (lkeys ls) -> ~ In [] (lkeys ls) ->
  let r := sync_one cfg S D ans bits ls ld ft in
  r_confirm_failed r = true ->
  r_ok r = false /\ d_fs (r_dest r) = d_fs D /\ filter mutating (r_dest_trace r) = [].
Proof.
  intros Hnd Hroot. cbv zeta.
  destruct (sync_one_cases cfg S D ans bits ls ld ft) as (pl & [Hs|sn skip np Hs Hg|sn ans1 np1 steps r Hs Hg
    [Ha|acts Ha Hc|acts acts' sk b2 a2 np Ha Hc Hd|acts acts' sk b2 a2 np Ha Hc Hd]]); try (cbn; discriminate).
  intros _. cbn [r_ok r_dest r_dest_trace]. destruct (fget (d_fs D) []) as [dn|] eqn:ED.
  - (* destination root exists: nothing is sent before the confirmation *)
    rewrite start_state_idle by (right; discriminate). repeat split. apply listing_trace_no_mut.
  - (* destination root absent: the plan only creates, so the confirmation cannot fail *)
    rewrite <- ED in Ha. rewrite (absent_dest_root_plan _ _ S (d_fs D) sn bits ls ld _ _ acts Hnd Hroot Hs ED Ha) in Hc. discriminate.
Qed.

(* Every prompt is answered before the first mutating command: a prompt can only occur when the
   destination root exists, and then nothing is sent to the destination before the confirmation
   pass is over (CreateRootAncestors is only sent for an absent root). *)
Theorem prompts_need_dest_root cfg S D ans bits ls ld ft :
  NoDup (lkeys ls) -> ~ In [] (lkeys ls) ->
  fget (d_fs D) [] = None ->
  r_prompts (sync_one cfg S D ans bits ls ld ft) = [].
Proof.
  intros Hnd Hroot ED.
  destruct (sync_one_cases cfg S D ans bits ls ld ft) as (pl & [Hs|sn skip np Hs Hg|sn ans1 np1 steps r Hs Hg Hp]); [reflexivity| |];
    rewrite ED in Hg; cbn in Hg; [discriminate|]. inversion Hg; subst ans1 np1.
  destruct Hp as [Ha|acts Ha Hc|acts acts' sk b2 a2 np Ha Hc Hd|acts acts' sk b2 a2 np Ha Hc Hd]; try reflexivity;
    rewrite (absent_dest_root_plan _ _ S (d_fs D) sn bits ls ld _ _ acts Hnd Hroot Hs ED Ha) in Hc; inversion Hc; reflexivity.
Qed.

Theorem nothing_sent_before_confirmation cfg S D ans bits ls ld ft dn :
  fget (d_fs D) [] = Some dn ->
  let r := sync_one cfg S D ans bits ls ld ft in
  r_confirm_failed r = true \/ r_root_skipped r = true \/ cf_dry cfg = true ->
  filter mutating (r_dest_trace r) = [].
Proof.
  intros ED. cbv zeta.
  destruct (sync_one_cases cfg S D ans bits ls ld ft) as (pl & [Hs|sn skip np Hs Hg|sn ans1 np1 steps r Hs Hg
    [Ha|acts Ha Hc|acts acts' sk b2 a2 np Ha Hc Hd|acts acts' sk b2 a2 np Ha Hc Hd]]); try reflexivity;
    cbn [fail_result r_dest_trace r_confirm_failed r_root_skipped].
  4:{ intros [H|[H|H]]; congruence. }
  all: intros _; rewrite ED, start_state_idle by (right; discriminate); apply listing_trace_no_mut.
Qed.

End SyncFacts.
