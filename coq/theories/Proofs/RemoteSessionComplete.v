(* Remote session model: completeness of the delivery once both final messages have arrived (C14), and the part of
   the no-stuck statement that needs no premise: after the doer process has ended (C09). *)
From RJ Require Import Base.Prelude Model.RemoteSession Proofs.RemoteSessionBase Proofs.RemoteSessionFlow
  Proofs.RemoteSessionAInv Proofs.RemoteSessionBlocked.

Local Open Scope nat_scope.

(* the doer took Shutdown: it has taken exactly what the boss handed over, and executed exactly those commands *)
Theorem got_shutdown_complete c x s : reach c x s -> In MShut (hgot (de s)) ->
  hgot (de s) = hsent (be s) /\ dexec (dm s) = cmd_ids (hsent (be s)) /\ q (inc (de s)) = [].
Proof.
  intros R Hin. destruct (reach_finv _ _ _ R) as [[(r1 & E1 & _) _ _ _] _].
  destruct (last_taken_all _ _ _ _ _ E1 (b_shut_last _ (reach_boss_inv _ _ _ R)) Hin) as [Z1 Z2].
  rewrite Z1, Z2, !app_nil_r in E1. rewrite E1. split; [reflexivity|].
  split; [apply (d_exec _ (reach_doer_inv _ _ _ R)) | exact Z1].
Qed.

(* the boss took the final message as the final message: it has taken exactly what the doer handed over *)
Theorem got_final_complete c x s : reach c x s -> bfin (bm s) = true ->
  hgot (be s) = hsent (de s) /\ q (inc (be s)) = [].
Proof.
  intros R Hf. destruct (reach_finv _ _ _ R) as [_ [(r1 & E1 & _) _ _ _]].
  destruct (b_fin _ (reach_boss_inv _ _ _ R) Hf) as (zs & E).
  assert (Hin : In MFinal (hgot (be s))) by (rewrite E; apply in_or_app; right; now left).
  destruct (last_taken_all _ _ _ _ _ E1 (d_fin_last _ (reach_doer_inv _ _ _ R)) Hin) as [Z1 Z2].
  rewrite Z1, Z2, !app_nil_r in E1. auto.
Qed.

Theorem remote_complete_partial c x s : reach c x s ->
  In MShut (hgot (de s)) -> bfin (bm s) = true ->
  hgot (de s) = hsent (be s) /\ hgot (be s) = hsent (de s) /\ dexec (dm s) = cmd_ids (hsent (be s)) /\
  q (inc (de s)) = [] /\ q (inc (be s)) = [].
Proof.
  intros R H1 H2. destruct (got_shutdown_complete _ _ _ R H1) as (A & B & C).
  destruct (got_final_complete _ _ _ R H2) as (D & E). auto.
Qed.

(* the boss's socket is broken: whatever its main thread waits for, the thread it waits for can move *)
Theorem no_stuck_doer_gone c x s : reach c x s -> dalive (ev s) = false ->
  final s = true \/ exists s', step c s s'.
Proof.
  intros R Hd. destruct (final s) eqn:Hf; [now left|right].
  assert (He : at_end s = false) by (unfold final in Hf; rewrite Hd in Hf; cbn in Hf; now rewrite andb_true_r in Hf).
  assert (Hb : b_broken s = true) by (unfold b_broken; rewrite Hd; apply orb_true_r).
  destruct (reach_finv _ _ _ R) as [[_ Rx _ _] [_ _ _ Tx]]. pose proof (reach_boss_inv _ _ _ R) as BI.
  assert (SND : snd_ended (snd_t (be s)) = false -> (q (outc (be s)) <> [] \/ txa (outc (be s)) = false) ->
                exists s', step c s s').
  { intros H1 H2. destruct (broken_snd_moves c (be s) (b2d s) (bad_b2d (ev s)) H1 H2) as ([[e' wr] bad'] & E).
    eexists. exists ABSnd. unfold next. rewrite Hf, He, Hb, E. reflexivity. }
  assert (RCV : rcv_ended (rcv_t (be s)) = false -> (q (inc (be s)) = [] \/ rxa (inc (be s)) = false) ->
                exists s', step c s s').
  { intros H1 H2. destruct (broken_rcv_moves c (be s) (d2b s) H1 H2) as ([e' wr] & E).
    eexists. exists ABRcv. unfold next. rewrite Hf, He, Hb, E. reflexivity. }
  destruct (boss_step c s) as [s1|] eqn:B.
  { exists s1. exists ABoss. unfold next. rewrite Hf. exact B. }
  destruct (boss_none _ _ B) as [_ (X & _ & Q) | _ Q T | P Al | P Al | _ Al | P].
  - apply SND; [|now left]. rewrite X in Rx. now destruct (snd_ended (snd_t (be s))).
  - apply RCV; [|now left]. rewrite T in Tx. now destruct (rcv_ended (rcv_t (be s))).
  - apply SND; [exact Al|]. right. rewrite (b_txa _ BI), P. reflexivity.
  - apply RCV; [exact Al|]. right. rewrite (b_rxa _ BI), P. reflexivity.
  - congruence.
  - unfold at_end in He. rewrite P in He. discriminate He.
Qed.
