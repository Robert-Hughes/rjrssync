(* Lemmas about the byte-sequence primitives of Model/LE.v: lengths, sublist algebra
   (get/set laws of subN/updN/insN), little-endian codec round trips, "never panics" for the
   checked primitives. *)
From RJ Require Import Base.Prelude Model.LE.
From RJ Require Proofs.LEIntProofs.
Local Open Scope N_scope.

Definition sub {A} (l : list A) (o n : nat) : list A := firstn n (skipn o l).

Lemma sub_app_l {A} (a b : list A) o n : (o + n <= length a)%nat -> sub (a ++ b) o n = sub a o n.
Proof.
  intros H. unfold sub. rewrite skipn_app, firstn_app, skipn_length.
  replace (n - (length a - o))%nat with 0%nat by lia. cbn [firstn]. now rewrite app_nil_r.
Qed.

Lemma sub_app_r {A} (a b : list A) o n : (length a <= o)%nat -> sub (a ++ b) o n = sub b (o - length a) n.
Proof.
  intros H. unfold sub. rewrite skipn_app, (skipn_all2 a) by lia. reflexivity.
Qed.

Lemma sub_firstn {A} (l : list A) k o n : (o + n <= k)%nat -> sub (firstn k l) o n = sub l o n.
Proof.
  intros H. unfold sub. rewrite skipn_firstn_comm, firstn_firstn. f_equal. lia.
Qed.

Lemma skipn_skipn' {A} (l : list A) a b : skipn a (skipn b l) = skipn (b + a) l.
Proof.
  revert l; induction b as [|b IH]; intros l; [reflexivity|].
  destruct l as [|x l]; cbn [skipn Nat.add]; [now rewrite skipn_nil | apply IH].
Qed.

Lemma sub_skipn {A} (l : list A) k o n : sub (skipn k l) o n = sub l (k + o) n.
Proof. unfold sub. now rewrite skipn_skipn'. Qed.

Lemma sub_all {A} (l : list A) n : n = length l -> sub l 0 n = l.
Proof. intros ->. unfold sub. cbn [skipn]. apply firstn_all. Qed.

Lemma sub_prefix {A} (a b : list A) : sub (a ++ b) 0 (length a) = a.
Proof.
  unfold sub. cbn [skipn]. rewrite firstn_app, firstn_all, Nat.sub_diag. cbn [firstn]. apply app_nil_r.
Qed.

Lemma sub_length {A} (l : list A) o n : (o + n <= length l)%nat -> length (sub l o n) = n.
Proof. intros H. unfold sub. rewrite firstn_length, skipn_length. lia. Qed.

Lemma len_acc_spec {A} (l : list A) : forall acc, len_acc l acc = acc + N.of_nat (length l).
Proof.
  induction l as [|x l IH]; intros acc; cbn [len_acc length]; [lia|]. rewrite IH. lia.
Qed.
Lemma flen_eq {A} (l : list A) : flen l = lenN l.
Proof. unfold flen, lenN. now rewrite len_acc_spec. Qed.

Lemma lenN_app {A} (a b : list A) : lenN (a ++ b) = lenN a + lenN b.
Proof. unfold lenN. rewrite app_length. lia. Qed.
Lemma lenN_nil {A} : lenN (@nil A) = 0.
Proof. reflexivity. Qed.
Lemma lenN_cons {A} (x : A) l : lenN (x :: l) = 1 + lenN l.
Proof. unfold lenN. cbn [length]. lia. Qed.
Lemma lenN_takeN {A} n (l : list A) : lenN (takeN n l) = N.min n (lenN l).
Proof. unfold lenN, takeN. rewrite firstn_length. lia. Qed.
Lemma lenN_dropN {A} n (l : list A) : lenN (dropN n l) = lenN l - n.
Proof. unfold lenN, dropN. rewrite skipn_length. lia. Qed.
Lemma lenN_zerosN n : lenN (zerosN n) = n.
Proof. unfold lenN, zerosN. rewrite repeat_length. lia. Qed.
(* [encode_le] and [decode_le] are the two fixpoints of Model/LEInt.v under other names: its lemmas apply as they are *)
Lemma encode_length sz v : length (encode_le sz v) = sz.
Proof. exact (LEIntProofs.le_bytes_length sz v). Qed.
Lemma lenN_encode sz v : lenN (encode_le sz v) = N.of_nat sz.
Proof. unfold lenN. now rewrite encode_length. Qed.
Lemma lenN_subN bs off n : off + n <= lenN bs -> lenN (subN bs off n) = n.
Proof. intros H. unfold subN. rewrite lenN_takeN, lenN_dropN. lia. Qed.
Lemma lenN_updN bs off vs : off + lenN vs <= lenN bs -> lenN (updN bs off vs) = lenN bs.
Proof. intros H. unfold updN. rewrite !lenN_app, lenN_takeN, lenN_dropN. lia. Qed.
Lemma lenN_insN bs off vs : lenN (insN bs off vs) = lenN bs + lenN vs.
Proof.
  unfold insN. rewrite !lenN_app, lenN_takeN, lenN_dropN. lia.
Qed.

(* [len]: lengths of composite byte strings are normalised by the lenN rewrite set, lia does the rest *)
Global Hint Rewrite @lenN_app @lenN_cons @lenN_nil @lenN_takeN @lenN_dropN lenN_zerosN lenN_encode lenN_insN : lenN.
Ltac len := autorewrite with lenN; lia.
Global Hint Rewrite lenN_updN lenN_subN using len : lenN.

Lemma takeN_dropN {A} n (l : list A) : takeN n l ++ dropN n l = l.
Proof. apply firstn_skipn. Qed.
Lemma takeN_all {A} n (l : list A) : lenN l <= n -> takeN n l = l.
Proof. intros H. unfold takeN. apply firstn_all2. unfold lenN in H. lia. Qed.
Lemma dropN_app_exact {A} (a b : list A) : dropN (lenN a) (a ++ b) = b.
Proof.
  unfold dropN, lenN. rewrite Nat2N.id, skipn_app, skipn_all, Nat.sub_diag. reflexivity.
Qed.
Lemma takeN_app_exact {A} (a b : list A) : takeN (lenN a) (a ++ b) = a.
Proof.
  unfold takeN, lenN. rewrite Nat2N.id, firstn_app, firstn_all, Nat.sub_diag. cbn [firstn]. apply app_nil_r.
Qed.
Lemma dropN_app_l {A} n (a b : list A) : n <= lenN a -> dropN n (a ++ b) = dropN n a ++ b.
Proof.
  intros H. unfold dropN, lenN in *. rewrite skipn_app.
  replace (N.to_nat n - length a)%nat with 0%nat by lia. reflexivity.
Qed.
Lemma dropN_dropN {A} a b (l : list A) : dropN a (dropN b l) = dropN (b + a) l.
Proof. unfold dropN. rewrite skipn_skipn'. f_equal. lia. Qed.

Lemma subN_sub bs off n : subN bs off n = sub bs (N.to_nat off) (N.to_nat n).
Proof. reflexivity. Qed.

Lemma subN_app_l a b off n : off + n <= lenN a -> subN (a ++ b) off n = subN a off n.
Proof. intros H. rewrite !subN_sub. apply sub_app_l. unfold lenN in H. lia. Qed.

Lemma subN_app_r a b off n : lenN a <= off -> subN (a ++ b) off n = subN b (off - lenN a) n.
Proof.
  intros H. rewrite !subN_sub, sub_app_r by (unfold lenN in H; lia).
  f_equal. unfold lenN. lia.
Qed.

Lemma subN_takeN bs k off n : off + n <= k -> subN (takeN k bs) off n = subN bs off n.
Proof. intros H. rewrite !subN_sub. unfold takeN. apply sub_firstn. lia. Qed.

Lemma subN_dropN bs k off n : subN (dropN k bs) off n = subN bs (k + off) n.
Proof. rewrite !subN_sub. unfold dropN. rewrite sub_skipn. f_equal. lia. Qed.

Lemma subN_prefix a b : subN (a ++ b) 0 (lenN a) = a.
Proof. rewrite subN_sub. unfold lenN. rewrite Nat2N.id. apply sub_prefix. Qed.

Lemma subN_all bs : subN bs 0 (lenN bs) = bs.
Proof. rewrite <- (app_nil_r bs) at 1. apply subN_prefix. Qed.

Lemma subN_updN_same bs off vs : off + lenN vs <= lenN bs -> subN (updN bs off vs) off (lenN vs) = vs.
Proof.
  intros H. unfold updN. rewrite subN_app_r by (rewrite lenN_takeN; lia).
  rewrite lenN_takeN. replace (off - N.min off (lenN bs)) with 0 by lia. apply subN_prefix.
Qed.

Lemma subN_updN_disj bs off vs o2 n : off + lenN vs <= lenN bs ->
  o2 + n <= off \/ off + lenN vs <= o2 ->
  subN (updN bs off vs) o2 n = subN bs o2 n.
Proof.
  intros H [D|D]; unfold updN.
  - rewrite subN_app_l by (rewrite lenN_takeN; lia). apply subN_takeN. exact D.
  - rewrite subN_app_r by (rewrite lenN_takeN; lia). rewrite lenN_takeN.
    rewrite subN_app_r by lia. rewrite subN_dropN. f_equal. lia.
Qed.

Lemma subN_insN_before bs pos vs o2 n : pos <= lenN bs -> o2 + n <= pos ->
  subN (insN bs pos vs) o2 n = subN bs o2 n.
Proof.
  intros H D. unfold insN. rewrite subN_app_l by (rewrite lenN_takeN; lia). now apply subN_takeN.
Qed.

Lemma subN_insN_at bs pos vs : pos <= lenN bs -> subN (insN bs pos vs) pos (lenN vs) = vs.
Proof.
  intros H. unfold insN. rewrite subN_app_r by (rewrite lenN_takeN; lia).
  rewrite lenN_takeN. replace (pos - N.min pos (lenN bs)) with 0 by lia. apply subN_prefix.
Qed.

Lemma subN_insN_after bs pos vs o2 n : pos <= lenN bs -> pos + lenN vs <= o2 ->
  subN (insN bs pos vs) o2 n = subN bs (o2 - lenN vs) n.
Proof.
  intros H D. unfold insN. rewrite subN_app_r by (rewrite lenN_takeN; lia). rewrite lenN_takeN.
  rewrite subN_app_r by lia. rewrite subN_dropN. f_equal. lia.
Qed.

Lemma updN_app_l a b off vs : off + lenN vs <= lenN a -> updN (a ++ b) off vs = updN a off vs ++ b.
Proof.
  intros H. unfold updN. rewrite <- !app_assoc. f_equal.
  - unfold takeN. rewrite firstn_app. replace (N.to_nat off - length a)%nat with 0%nat by (unfold lenN in H; lia).
    cbn [firstn]. now rewrite app_nil_r.
  - f_equal. apply dropN_app_l. lia.
Qed.

Lemma subN_app_r' a b x n : subN (a ++ b) (lenN a + x) n = subN b x n.
Proof. rewrite subN_app_r by lia. f_equal. lia. Qed.

Lemma subN_updN_inside bs off vs x n : off + lenN vs <= lenN bs -> x + n <= lenN vs ->
  subN (updN bs off vs) (off + x) n = subN vs x n.
Proof.
  intros L I. unfold updN.
  replace (off + x) with (lenN (takeN off bs) + x) by len.
  rewrite subN_app_r'. apply subN_app_l. exact I.
Qed.

Lemma dropN_takeN bs d q : dropN d (takeN q bs) = subN bs d (q - d).
Proof.
  unfold dropN, takeN, subN, takeN, dropN. rewrite skipn_firstn_comm. f_equal. lia.
Qed.

Lemma dropN_split bs d q : d <= q -> dropN d bs = subN bs d (q - d) ++ dropN q bs.
Proof.
  intros H. unfold subN. replace (dropN q bs) with (dropN (q - d) (dropN d bs)) by (rewrite dropN_dropN; f_equal; lia).
  symmetry. apply takeN_dropN.
Qed.

Lemma firstn_plus {A} (l : list A) a b : firstn (a + b) l = firstn a l ++ firstn b (skipn a l).
Proof.
  revert l; induction a as [|a IH]; intros l; [reflexivity|].
  destruct l as [|x l]; cbn [Nat.add firstn skipn app]; [now rewrite firstn_nil | now rewrite IH].
Qed.

Lemma subN_split bs d a b : subN bs d (a + b) = subN bs d a ++ subN bs (d + a) b.
Proof.
  unfold subN, takeN, dropN. rewrite N2Nat.inj_add. rewrite (N2Nat.inj_add d a).
  rewrite <- skipn_skipn'. apply firstn_plus.
Qed.

Lemma subN_subN bs a L x n : x + n <= L -> subN (subN bs a L) x n = subN bs (a + x) n.
Proof.
  intros H. unfold subN at 1 2. rewrite dropN_takeN. unfold subN.
  rewrite dropN_dropN. unfold takeN. rewrite firstn_firstn. f_equal. lia.
Qed.

(* A string is known by its suffixes at the boundaries of its segments: from one boundary to the
   next, and reading inside the segment that starts at a boundary. *)
Lemma dropN_step {A} (bs a b : list A) o o' : dropN o bs = a ++ b -> o' = o + lenN a -> dropN o' bs = b.
Proof. intros H ->. rewrite <- dropN_dropN, H. apply dropN_app_exact. Qed.

Lemma subN_at bs o a b x n : dropN o bs = a ++ b -> x + n <= lenN a -> subN bs (o + x) n = subN a x n.
Proof. intros H L. rewrite <- subN_dropN, H. now apply subN_app_l. Qed.

Lemma zerosN_split a b : zerosN (a + b) = zerosN a ++ zerosN b.
Proof. unfold zerosN. rewrite N2Nat.inj_add. apply repeat_app. Qed.

Lemma resizeN_grow bs n : lenN bs <= n -> resizeN bs n = bs ++ zerosN (n - lenN bs).
Proof.
  intros H. unfold resizeN. rewrite !flen_eq. destruct (N.leb_spec n (lenN bs)) as [G|G]; [|reflexivity].
  assert (n = lenN bs) as -> by lia. rewrite takeN_all by lia. rewrite N.sub_diag. cbn. now rewrite app_nil_r.
Qed.

Lemma b2n_n2b v : b2n (n2b v) = v mod 256.
Proof. unfold b2n, n2b. apply N_ascii_embedding. apply N.mod_lt. discriminate. Qed.

Lemma b2n_lt b : b2n b < 256.
Proof. apply N_ascii_bounded. Qed.

Lemma n2b_b2n b : n2b (b2n b) = b.
Proof. unfold n2b, b2n. rewrite N.mod_small by apply N_ascii_bounded. apply ascii_N_embedding. Qed.

Lemma decode_encode sz v : decode_le (encode_le sz v) = v mod 256 ^ N.of_nat sz.
Proof.
  revert v; induction sz as [|k IH]; intros v.
  - cbn [encode_le decode_le]. change (256 ^ N.of_nat 0) with 1. now rewrite N.mod_1_r.
  - cbn [encode_le decode_le]. rewrite IH, b2n_n2b, Nat2N.inj_succ, N.pow_succ_r'.
    rewrite N.mod_mul_r; [reflexivity | discriminate | apply N.pow_nonzero; discriminate].
Qed.

Lemma decode_lt bs : decode_le bs < 256 ^ lenN bs.
Proof.
  induction bs as [|b r IH].
  - cbn. lia.
  - cbn [decode_le]. rewrite lenN_cons, N.add_1_l, N.pow_succ_r'. pose proof (b2n_lt b). lia.
Qed.

Lemma encode_decode bs : encode_le (length bs) (decode_le bs) = bs.
Proof. exact (LEIntProofs.le_bytes_of_le_bytes bs). Qed.

Lemma le_roundtrip : forall (sz : nat) (v : N) (bs : list byte),
  decode_le (encode_le sz v) = v mod 256 ^ N.of_nat sz /\ encode_le (length bs) (decode_le bs) = bs.
Proof. intros. split; [apply decode_encode | apply encode_decode]. Qed.

Lemma decode_encode_small sz v : v < 256 ^ N.of_nat sz -> decode_le (encode_le sz v) = v.
Proof. intros H. rewrite decode_encode. now apply N.mod_small. Qed.

Lemma decode_encode_1 v : v < 256 -> decode_le (encode_le 1 v) = v.
Proof. intros H. apply decode_encode_small. lia. Qed.

Definition np {A} (x : outcome A) : Prop := is_panic x = false.

Lemma np_bind {A B} (x : outcome A) (f : A -> outcome B) :
  np x -> (forall a, np (f a)) -> np (obind x f).
Proof. unfold np. destruct x; cbn; auto. Qed.

Lemma np_uadd m M a b : np (uadd true m M a b).
Proof. unfold np, uadd. destruct (a + b <? M); reflexivity. Qed.
Lemma np_usub m M a b : np (usub true m M a b).
Proof. unfold np, usub. destruct (b <=? a); reflexivity. Qed.
Lemma np_umul m M a b : np (umul true m M a b).
Proof. unfold np, umul. destruct (a * b <? M); reflexivity. Qed.
Lemma np_udiv a b : np (udiv true a b).
Proof. unfold np, udiv. destruct (b =? 0); reflexivity. Qed.
Lemma np_ucast M x : np (ucast true M x).
Proof. unfold np, ucast. destruct (x <? M); reflexivity. Qed.
Lemma np_align m M x k : np (align true m M x k).
Proof.
  unfold np, align. destruct (k =? 0); [reflexivity|]. destruct (x =? 0); [reflexivity|].
  cbv zeta. destruct (_ <? M); reflexivity.
Qed.
Lemma np_read_field m sz bs off : np (read_field true m sz bs off).
Proof. unfold np, read_field. destruct (_ <=? _); [reflexivity|]. destruct (_ <=? _); reflexivity. Qed.
Lemma np_write_field m sz bs off v : np (write_field true m sz bs off v).
Proof. unfold np, write_field. destruct (_ <=? _); [reflexivity|]. destruct (_ <=? _); reflexivity. Qed.
Lemma np_rs bs fuel : np (rs bs fuel).
Proof.
  revert bs; induction fuel as [|f IH]; intros bs; [reflexivity|].
  cbn [rs]. destruct bs as [|c r]; [reflexivity|]. destruct (Ascii.eqb c zero); [reflexivity|].
  specialize (IH r). unfold np in *. destruct (rs r f); [reflexivity | reflexivity | discriminate].
Qed.
Lemma np_read_string bs off fuel : np (read_string bs off fuel).
Proof. unfold read_string. destruct (off <? flen bs); [apply np_rs | reflexivity]. Qed.
Lemma np_split_trunc bs a s : np (split_trunc true bs a s).
Proof. unfold np, split_trunc. destruct (a <=? flen bs); reflexivity. Qed.
Lemma np_splice_ins bs pos ins : np (splice_ins true bs pos ins).
Proof. unfold np, splice_ins. destruct (pos <=? flen bs); reflexivity. Qed.
Lemma np_overwrite bs off vs : np (overwrite true bs off vs).
Proof. unfold np, overwrite. destruct (_ <=? _); reflexivity. Qed.

Lemma np_ok {A} (a : A) : np (Ok a).
Proof. reflexivity. Qed.
Lemma np_err {A} e : np (@Err A e).
Proof. reflexivity. Qed.

Lemma np_not_panic {A} (x : outcome A) : np x -> forall s, x <> Panic s.
Proof. unfold np. intros H s ->. discriminate. Qed.

Lemma np_total {A} (x : outcome A) : np x -> (exists a, x = Ok a) \/ (exists e, x = Err e).
Proof. unfold np. destruct x; cbn; intros H; [left; eauto | right; eauto | discriminate]. Qed.

Global Hint Resolve np_uadd np_usub np_umul np_udiv np_ucast np_align np_read_field np_write_field
  np_read_string np_split_trunc np_splice_ins np_overwrite np_ok np_err : np.

(* one step of a "never panics" proof over a monadic chain *)
Ltac np_step :=
  lazymatch goal with
  | |- np (obind _ _) => apply np_bind; [ | intros ? ]
  | |- np (if ?c then _ else _) => destruct c
  | |- np (let _ := _ in _) => cbv zeta
  | |- np _ => solve [ auto with np ]
  end.

