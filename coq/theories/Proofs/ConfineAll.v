(* C02, for ALL runs: with the F6b repair in place no sync ever resolves a path through a destination
   symlink - whatever is skipped, whatever fails, wherever, and however late the boss notices. *)
From RJ Require Import Base.Prelude Base.OrderedPlan Model.Settings Model.Core Model.Fs Model.Sync
  Spec.PlanSpec Spec.Mirror Proofs.PlanCProofs Proofs.FsProofs Proofs.StepProofs Proofs.PathLemmas Proofs.ConfirmProofs Proofs.SyncProofs
  Proofs.DryProofs Proofs.ExecProofs Proofs.MirrorProofs Proofs.ConfineProofs Proofs.QuietProofs Proofs.BlockProofs
  Proofs.CrashProofs.

Lemma blocked_inj st c q : blocked_at st q = true -> blocked_at (inj_state st c) q = true.
Proof. unfold blocked_at. intros H. destruct c; try exact H; cbn; rewrite H; apply orb_true_r. Qed.

Section Dyn.
Variable fl : flavour.
Variable ft : faults.
Variable D0 : fs.

Lemma run_step_blocked r s q : blocked_at (rs_d r) q = true -> blocked_at (rs_d (run_step fl ft r s)) q = true.
Proof.
  intros H. destruct (run_step_cases fl ft r s) as [-> | ->]; [exact H|]. rewrite do_step_d.
  destruct s as [c|]; [|exact H]. destruct (stopped ft r c); [exact H|].
  destruct (injected ft r c); [apply blocked_inj, H|apply blocked_stays, H].
Qed.

(* where a link on the destination can come from, at any moment of the run *)
Definition LInv (r : rstate) (proc : list path) (cld : list (path * (entry * creason))) : Prop :=
  forall q t k, fget (d_fs (rs_d r)) q = Some (NLink t k) ->
    dead ft r \/ blocked_at (rs_d r) q = true \/
    (fget D0 q = Some (NLink t k) /\ ~ In q proc) \/
    (exists k' t' rr, In (q, (ESymlink k' t', rr)) cld).

(* no step lifts a block or revives a dead run: the invariant survives a step after which every link was
   there before or is one of the links to be copied *)
Lemma LInv_mono r s proc cld : LInv r proc cld ->
  (forall q t k, fget (d_fs (rs_d (run_step fl ft r s))) q = Some (NLink t k) ->
     fget (d_fs (rs_d r)) q = Some (NLink t k) \/ exists k' t' rr, In (q, (ESymlink k' t', rr)) cld) ->
  LInv (run_step fl ft r s) proc cld.
Proof.
  intros HL Hk q t k Hl. destruct (Hk q t k Hl) as [Hl0|Hc]; [|right; right; right; exact Hc].
  destruct (HL q t k Hl0) as [H|[H|[H|H]]];
    [left; apply dead_step, H|right; left; apply run_step_blocked, H|right; right; left; exact H|right; right; right; exact H].
Qed.

Lemma same_state_step r s proc cld : rs_d (run_step fl ft r s) = rs_d r ->
  no_through (d_events (rs_d r)) /\ LInv r proc cld ->
  no_through (d_events (rs_d (run_step fl ft r s))) /\ LInv (run_step fl ft r s) proc cld.
Proof.
  intros E [Hnt HL]. split; [rewrite E; exact Hnt|]. apply LInv_mono; [exact HL|].
  intros q t k Hl. left. rewrite E in Hl. exact Hl.
Qed.

(* a deletion below folders only: it removes its path, or leaves the tree as it was - and then the run is dead
   or the path blocked *)
Lemma delete_outcome r c p : deletes c p -> quiet_at (rs_d r) p ->
  let r' := run_step fl ft r (DestCmd c) in
  d_events (rs_d r') = d_events (rs_d r) /\
  (d_fs (rs_d r') = fdel (d_fs (rs_d r)) p \/
   d_fs (rs_d r') = d_fs (rs_d r) /\ (dead ft r' \/ blocked_at (rs_d r') p = true)).
Proof.
  intros Hdel Hq r'. destruct (deletes_path c p Hdel) as [Hp Hc].
  assert (Hnote : blocked_at (note_faildel (rs_d r) p) p = true) by apply blocked_note, is_prefix_refl.
  destruct (dest_step_cases fl ft r c) as [(_ & E)|[(Hd & E)|(_ & E)]]; [destruct Hdel; reflexivity|..]; fold r' in E; rewrite E.
  - destruct (doer_exec_nc fl (rs_d r) c Hc) as [Hn|Hn|e Hb|p' e Hd|p' q Hp' Hr|p' n Hn|p' Hd _ _].
    + destruct Hdel; destruct Hn; discriminate.
    + destruct Hdel; discriminate.
    + split; [reflexivity|]. right. split; [reflexivity|]. right. apply Hb, Hdel.
    + apply deletes_path in Hd as [Hd _]. replace p' with p by congruence. split; [reflexivity|]. right. auto.
    + replace p' with p in Hr by congruence. destruct (quiet_resolve _ _ Hq _ Hr).
    + destruct Hdel; inversion Hn.
    + apply deletes_path in Hd as [Hd _]. replace p' with p by congruence. split; [reflexivity|]. left. reflexivity.
  - split; [reflexivity|]. right. split; [reflexivity|]. left. apply dead_step, Hd.
  - destruct Hdel; (split; [reflexivity|]); right; (split; [reflexivity|]); right; exact Hnote.
Qed.

Lemma delete_step r c p proc cld :
  deletes c p -> quiet_at (rs_d r) p -> LInv r proc cld ->
  let r' := run_step fl ft r (DestCmd c) in
  d_events (rs_d r') = d_events (rs_d r) /\ LInv r' (p :: proc) cld /\
  (forall q, q <> p -> fget (d_fs (rs_d r')) q = fget (d_fs (rs_d r)) q).
Proof.
  intros Hdel Hq HL r'. destruct (delete_outcome r c p Hdel Hq) as [Hev Hfs]. fold r' in Hev, Hfs.
  assert (Hfr : forall q, q <> p -> fget (d_fs (rs_d r')) q = fget (d_fs (rs_d r)) q).
  { intros q Hne. destruct Hfs as [-> |[-> _]]; [apply fget_fdel_ne; exact Hne|reflexivity]. }
  assert (HL' : LInv r' proc cld).
  { apply LInv_mono; [exact HL|]. intros q t k Hl. left. fold r' in Hl. destruct Hfs as [E|[E _]]; rewrite E in Hl; [|exact Hl].
    rewrite fget_fdel in Hl. destruct (path_eq_dec q p); [discriminate|exact Hl]. }
  split; [exact Hev|]. split; [|exact Hfr]. intros q t k Hl. destruct (path_eq_dec q p) as [->|Hne].
  - destruct Hfs as [E|[_ [Hd|Hb]]]; [rewrite E, fget_fdel_eq in Hl; discriminate|left; exact Hd|right; left; exact Hb].
  - destruct (HL' q t k Hl) as [H|[H|[[H1 H2]|H]]]; [left; exact H|right; left; exact H| |right; right; right; exact H].
    right; right; left. split; [exact H1|]. intros [Heq|Hin]; [apply Hne; symmetry; exact Heq|exact (H2 Hin)].
Qed.

(* the strict prefixes of a path still to be deleted are folders, deleted after it if at all *)
Definition DelInv (r : rstate) (dlr : list (path * (entry * dreason))) : Prop :=
  forall p, In p (map fst dlr) -> p <> [] ->
    forall q, is_strict_prefix q p = true ->
      fget (d_fs (rs_d r)) q = Some NFolder /\ (In q (map fst dlr) -> before p q (map fst dlr)).

Lemma delete_phase : forall (dlr : list (path * (entry * dreason))) r proc cld,
  NoDup (map fst dlr) -> DelInv r dlr -> LInv r proc cld ->
  let r' := run_steps fl ft r (map (fun e => DestCmd (delete_cmd e)) dlr) in
  d_events (rs_d r') = d_events (rs_d r) /\ LInv r' (rev (map fst dlr) ++ proc) cld.
Proof.
  induction dlr as [|e dlr IH]; intros r proc cld Hnd Hinv HL; [split; [reflexivity|exact HL]|].
  cbn [map rev]. rewrite run_steps_cons, <- app_assoc. inversion Hnd as [|? ? Hnin Hnd']; subst.
  assert (Hq0 : quiet_at (rs_d r) (fst e)).
  { destruct (fst e) as [|c p] eqn:Ep; [left; reflexivity|]. right. intros q Hq.
    apply (Hinv (fst e)); [left; reflexivity|rewrite Ep; discriminate|rewrite Ep; exact Hq]. }
  destruct (delete_step r _ _ proc cld (delete_cmd_deletes e) Hq0 HL) as (E1 & L1 & F1).
  set (r1 := run_step fl ft r (DestCmd (delete_cmd e))) in *.
  assert (Hinv1 : DelInv r1 dlr).
  { intros p Hp Hpne q Hq. destruct (Hinv p (or_intror Hp) Hpne q Hq) as [Hf Hb].
    assert (Hqne : q <> fst e).
    { intros ->. specialize (Hb (or_introl eq_refl)). cbn [map] in Hb. inversion Hb; subst.
      - apply Hnin. exact Hp.
      - apply before_in_r in H0. contradiction. }
    split; [rewrite (F1 q Hqne); exact Hf|].
    intros Hqin. specialize (Hb (or_intror Hqin)). cbn [map] in Hb. inversion Hb; subst.
    - exfalso. apply Hnin. exact Hp.
    - assumption. }
  destruct (IH r1 (fst e :: proc) cld Hnd' Hinv1 L1) as (E2 & L2). split; [rewrite E2; exact E1|exact L2].
Qed.

Section CopyPhase.
Variable dl : list (path * (entry * dreason)).
Variable cl : list (path * (entry * creason)).
Variable proc : list path.
Hypothesis proc_dl : forall q, In q (map fst dl) -> In q proc.
Hypothesis HndC : NoDup (map fst cl).
(* a link of the original destination above a path to be copied is always among the deletions *)
Hypothesis C1 : forall p e r q t k, In (p, (e, r)) cl -> is_strict_prefix q p = true -> fget D0 q = Some (NLink t k) -> In q (map fst dl).
(* nothing is copied below a link that is copied itself *)
Hypothesis C2 : forall p e r q k t rr, In (p, (e, r)) cl -> is_strict_prefix q p = true -> ~ In (q, (ESymlink k t, rr)) cl.
(* a link of the original destination where a file is to be written is among the deletions *)
Hypothesis C3 : forall p mt sz r t k, In (p, (EFile mt sz, r)) cl -> fget D0 p = Some (NLink t k) -> In p (map fst dl).

Inductive cmd_of_entry (p : path) : entry -> cmd -> Prop :=
| ce_folder : cmd_of_entry p EFolder (CCreateFolder p)
| ce_link k t : cmd_of_entry p (ESymlink k t) (CCreateSymlink p k t)
| ce_file mt sz d smt more : cmd_of_entry p (EFile mt sz) (CCreateOrUpdateFile p d smt more).

Definition belongs (s : bstep) : Prop :=
  (exists q, s = SrcFetch q) \/ (exists p e r c, In (p, (e, r)) cl /\ s = DestCmd c /\ cmd_of_entry p e c).

Lemma strict_is_prefix q p : is_strict_prefix q p = true -> is_prefix q p = true.
Proof. unfold is_strict_prefix. intros H. apply andb_true_iff in H. tauto. Qed.

(* a chunk leaves at its path what was there, or a file *)
Lemma chunk_result_kind st p d smt more :
  fget (d_fs (fst (doer_exec fl st (CCreateOrUpdateFile p d smt more)))) p = fget (d_fs st) p \/
  exists m dd, fget (d_fs (fst (doer_exec fl st (CCreateOrUpdateFile p d smt more)))) p = Some (NFile m dd).
Proof.
  destruct (blocked_at st p) eqn:Hb; [cbn [doer_exec]; rewrite Hb; left; reflexivity|].
  destruct (refuses st p) eqn:Hr; [cbn [doer_exec]; rewrite Hb, Hr; left; reflexivity|].
  rewrite chunk_exec by assumption.
  destruct (open_for_write _ p) as [st1|st1|e] eqn:Eo; [|left; dsimpl; rewrite (open_outside_fs _ _ _ Eo); reflexivity|left; reflexivity].
  right. unfold chunk_end, stamp_file, write_chunk. destruct (write_fails st1); [|destruct smt]; dsimpl; rewrite fget_fset_eq; eauto.
Qed.

(* a link after a copy command was there before, or is the link the command is to create *)
Lemma copy_cmd_links st p e c q t k : cmd_of_entry p e c ->
  fget (d_fs (fst (doer_exec fl st c))) q = Some (NLink t k) ->
  fget (d_fs st) q = Some (NLink t k) \/ q = p /\ exists k0 t0, e = ESymlink k0 t0.
Proof.
  intros Hce Hl. destruct (path_eq_dec q p) as [->|Hne].
  - destruct Hce as [|k0 t0|mt sz d smt more]; [|right; eauto|].
    + left. rewrite <- Hl. symmetry.
      destruct (doer_exec_nc fl st (CCreateFolder p) eq_refl) as [| | | | |p' n Hn|p' Hd]; try reflexivity; [|inversion Hd].
      inversion Hn; subst. dsimpl. rewrite fget_fset_eq in Hl. discriminate.
    + left. destruct (chunk_result_kind st p d smt more) as [E|(m & dd & E)]; rewrite E in Hl; [exact Hl|discriminate].
  - left. rewrite <- Hl. symmetry. destruct (doer_exec fl st c) as [st' er] eqn:Ed. apply (doer_exec_frame fl st c st' er q Ed).
    destruct Hce; cbn [cmd_path]; congruence.
Qed.

Lemma copy_step r s : belongs s ->
  no_through (d_events (rs_d r)) /\ LInv r proc cl ->
  no_through (d_events (rs_d (run_step fl ft r s))) /\ LInv (run_step fl ft r s) proc cl.
Proof.
  intros [(q0 & ->)|(p & e & rr & c & Hin & -> & Hce)] HI.
  { apply same_state_step; [|exact HI]. rewrite run_step_d, executes_fetch. apply idle_fetch. }
  destruct (dest_step_cases fl ft r c) as [(Halive & E)|[(_ & E)|(_ & E)]]; [destruct Hce; reflexivity| |apply same_state_step; assumption|].
  2: { apply same_state_step; [|exact HI]. rewrite E. destruct Hce; reflexivity. }
  destruct HI as [Hnt HL]. split.
  - (* the log: a blocked command does nothing; otherwise no link lies above p, and none at p if c writes a file *)
    rewrite E. destruct (blocked_at (rs_d r) p) eqn:Hb.
    { rewrite (blocked_refused fl (rs_d r) c p); [exact Hnt|destruct Hce; reflexivity|exact Hb]. }
    assert (Habove : nolink_above (rs_d r) p).
    { intros q t Hq Hl. destruct (HL q t SKFolder Hl) as [H|[H|[(H1 & H2)|(k' & t' & r' & H)]]].
      - contradiction.
      - rewrite (blocked_below (rs_d r) q p H (strict_is_prefix q p Hq)) in Hb. discriminate.
      - apply H2. apply proc_dl. exact (C1 p e rr q t SKFolder Hin Hq H1).
      - exact (C2 p e rr q k' t' r' Hin Hq H). }
    destruct (is_chunk c) eqn:Hc; [|rewrite (cmd_noevent fl (rs_d r) c p); [exact Hnt|destruct Hce; reflexivity|exact Hc|exact Habove]].
    destruct (doer_exec_log fl (rs_d r) c) as [El|[El|(p' & q & Hp' & Hth & El)]]; rewrite El;
      [exact Hnt|apply no_through_app; split; [exact Hnt|reflexivity]|exfalso].
    destruct Hce as [| |mt sz d smt more]; try discriminate Hc. injection Hp' as <-.
    destruct Hth as [Hr|(-> & t & k & Hl)]; [exact (nolink_resolve _ _ Habove _ Hr)|].
    destruct (HL p t k Hl) as [H|[H|[(H1 & H2)|(k' & t' & r' & H)]]].
    + contradiction.
    + congruence.
    + apply H2. apply proc_dl. exact (C3 p mt sz rr t k Hin H1).
    + (* p would be copied both as a file and as a link *)
      assert (E1 : alookup path path_eq_dec p cl = Some (EFile mt sz, rr)) by (apply alookup_in; assumption).
      assert (E2 : alookup path path_eq_dec p cl = Some (ESymlink k' t', r')) by (apply alookup_in; assumption).
      congruence.
  - apply LInv_mono; [exact HL|]. intros q t k Hl. rewrite E in Hl.
    destruct (copy_cmd_links _ p e c q t k Hce Hl) as [H|(-> & k0 & t0 & ->)]; [left; exact H|right; eauto].
Qed.

Lemma copy_steps_all steps : (forall s, In s steps -> belongs s) -> forall r,
  no_through (d_events (rs_d r)) /\ LInv r proc cl ->
  no_through (d_events (rs_d (run_steps fl ft r steps))) /\ LInv (run_steps fl ft r steps) proc cl.
Proof.
  intros Hall. apply (run_steps_inv_in fl ft (fun r => no_through (d_events (rs_d r)) /\ LInv r proc cl)).
  intros r s Hs. apply copy_step, Hall, Hs.
Qed.

End CopyPhase.

End Dyn.

Lemma no_through_snoc_anc l : no_through l -> no_through (l ++ [CreatedAncestors]).
Proof. intros H. apply no_through_app. split; [exact H|reflexivity]. Qed.

Section AllRuns.
Variable now_z : N -> Z.
Variable incl : path -> bool.
Variable normalize : str -> target.
Variable chunker : str -> list str.
Hypothesis chunker_ok : forall d, chunker d <> [] /\ concat (chunker d) = d.

Notation entry_of := (entry_of now_z normalize).
Notation valid_listing := (valid_listing now_z incl normalize).
Notation side_listing := (side_listing now_z normalize).
Notation takes_part := (takes_part incl).
Notation sync_one := (sync_one now_z normalize chunker).

(* the steps of a copy entry all belong to the copy list *)
Lemma copy_steps_belong S cl e : In e cl -> forall s, In s (copy_steps chunker S e) -> belongs cl s.
Proof.
  intros Hin s Hs. destruct e as [p [[mt sz| |k t] r]]; cbn [copy_steps] in Hs.
  - destruct (fget S p) as [[m data| |tt kk]|]; try (destruct Hs as [<-|[]]; left; eauto; fail).
    destruct Hs as [<-|Hs]; [left; eauto|].
    destruct (chunk_cmds_shape p mt (chunker data) s Hs) as (d & smt & more & ->).
    right. exists p, (EFile mt sz), r, (CCreateOrUpdateFile p d smt more). split; [exact Hin|]. split; [reflexivity|constructor].
  - destruct Hs as [<-|[]]. right. exists p, EFolder, r, (CCreateFolder p). split; [exact Hin|]. split; [reflexivity|constructor].
  - destruct Hs as [<-|[]]. right. exists p, (ESymlink k t), r, (CCreateSymlink p k t). split; [exact Hin|]. split; [reflexivity|constructor].
Qed.

Theorem no_run_goes_through_a_link cfg S D ans bits ls ld ft :
  valid_listing S ls -> valid_listing (d_fs D) ld ->
  parents_first (lkeys (side_listing S ls)) -> parents_first (lkeys (side_listing (d_fs D) ld)) ->
  wf_fs (d_fs D) -> no_through (d_events D) ->
  no_through (d_events (r_dest (sync_one cfg S D ans bits ls ld ft))).
Proof.
  intros HvS HvD HpfS HpfD HwD Hnt0.
  pose proof (side_lists now_z incl normalize S ls HvS) as HS. pose proof (side_lists now_z incl normalize (d_fs D) ld HvD) as HD.
  destruct (sync_one_cases now_z normalize chunker cfg S D ans bits ls ld ft) as (pl & [Hs|sn skip np Hs Hg|sn ans1 np1 steps r Hs Hg Hp]);
    try exact Hnt0.
  destruct (start_state_tree (cf_fl cfg) ft (cf_dry cfg) D (entry_of sn) (option_map entry_of (fget (d_fs D) []))) as (Hfs1 & _ & Hev1).
  set (r1 := start_state _ _ _ _ _ _) in *.
  assert (Hnt1 : no_through (d_events (rs_d r1))).
  { destruct Hev1 as [-> | ->]; [exact Hnt0|apply no_through_snoc_anc; exact Hnt0]. }
  destruct Hp as [Ha|acts Ha Hc|acts acts' sk b2 a2 np Ha Hc Hd|acts acts' sk b2 a2 np Ha Hc Hd]; try exact Hnt1.
  rewrite (arrivals_spec now_z incl normalize _ _ S (d_fs D) sn bits ls ld HvS HvD Hs) in Ha. inversion Ha; subst acts. clear Ha.
  set (Ls := side_listing S ls) in *. set (Ld := side_listing (d_fs D) ld) in *. set (ss := beh_eqb _ _) in *.
  set (acts := plan_spec (cf_diff cfg) ss Ls Ld) in *. set (dl' := a_delete acts'). set (cl' := a_copy acts').
  (* the static facts of the plan, and of what the confirmation left of it *)
  assert (NdD0 : NoDup (map fst (a_delete acts))) by (apply nodup_delete_keys; apply HD).
  destruct (confirmed_delete_keys _ _ _ _ _ _ _ _ Hc NdD0) as [NdD Hord]. fold dl' in NdD, Hord.
  assert (NdC : NoDup (map fst cl')) by (apply (confirmed_copy_keys _ _ _ _ _ _ _ _ Hc); apply nodup_copy_keys; apply HS).
  assert (Hsrc_of : forall p e r, In (p, (e, r)) cl' -> In (p, e) Ls /\ takes_part S p).
  { intros p e r Hin. apply (confirmed_copy_in _ _ _ _ _ _ _ _ Hc) in Hin. exact (copy_is_listed now_z incl normalize _ _ S Ls Ld HS p e r Hin). }
  (* a destination link where the source has something else is deleted for that reason, and the deletion was not
     skipped if anything at or below it is copied (the F6a repair) *)
  assert (Hway : forall x q es t k, In x cl' -> is_prefix q (fst x) = true -> In (q, es) Ls ->
                   (forall k' t', es <> ESymlink k' t') -> fget (d_fs D) q = Some (NLink t k) -> In q (map fst dl')).
  { intros x q es t k Hin Hqp HinLs Hnl Hlink.
    change q with (fst (q, (entry_of (NLink t k), Incompatible))). apply in_map.
    apply (confirmed_in_the_way _ _ _ _ _ _ _ _ Hc q _ x); [|exact Hin|exact Hqp].
    apply (in_the_way now_z incl normalize _ ss S (d_fs D) Ls Ld HS HD HwD q es (NLink t k) HinLs Hlink).
    cbn [Fs.entry_of]. destruct es as [mt sz| |k' t']; [reflexivity|reflexivity|exfalso; eapply Hnl; reflexivity]. }
  assert (Hpre_of : forall p e r q, In (p, (e, r)) cl' -> is_strict_prefix q p = true -> In (q, EFolder) Ls).
  { intros p e r q Hin Hq. destruct (Hsrc_of p e r Hin) as [_ HtpS].
    assert (Hpne : p <> []) by (intros ->; destruct q; discriminate).
    destruct (prefixes_of_visible incl S p q HtpS Hpne Hq) as [HfqS HtqS]. apply HS. split; [exact HtqS|]. exists NFolder. auto. }
  assert (C1 : forall p e r q t k, In (p, (e, r)) cl' -> is_strict_prefix q p = true ->
                 fget (d_fs D) q = Some (NLink t k) -> In q (map fst dl')).
  { intros p e r q t k Hin Hq Hl.
    apply (Hway _ q EFolder t k Hin (strict_is_prefix q p Hq) (Hpre_of p e r q Hin Hq)); [discriminate|exact Hl]. }
  assert (C2 : forall p e r q k t rr, In (p, (e, r)) cl' -> is_strict_prefix q p = true ->
                 ~ In (q, (ESymlink k t, rr)) cl').
  { intros p e r q k t rr Hin Hq Hbad. destruct (Hsrc_of _ _ _ Hbad) as [HbadLs _].
    pose proof (alookup_in Ls q EFolder (proj1 HS) (Hpre_of p e r q Hin Hq)) as A1.
    rewrite (alookup_in Ls q (ESymlink k t) (proj1 HS) HbadLs) in A1. discriminate. }
  assert (C3 : forall p mt sz r t k, In (p, (EFile mt sz, r)) cl' -> fget (d_fs D) p = Some (NLink t k) ->
                 In p (map fst dl')).
  { intros p mt sz r t k Hin Hl. destruct (Hsrc_of p _ r Hin) as [HinLs _].
    apply (Hway _ p (EFile mt sz) t k Hin (is_prefix_refl p) HinLs); [discriminate|exact Hl]. }
  (* the delete phase *)
  cbn [r_dest]. unfold Sync.exec_steps. fold dl' cl'. rewrite run_steps_app.
  assert (HinvD : DelInv r1 dl').
  { assert (Hsub : forall p, In p (map fst dl') -> In p (map fst (a_delete acts))).
    { intros p Hp. apply in_map_iff in Hp as (x & <- & Hx). apply in_map. exact (confirmed_delete_in _ _ _ _ _ _ _ _ Hc x Hx). }
    intros p Hp Hpne q Hq. rewrite Hfs1.
    destruct (lists_key now_z incl normalize (d_fs D) Ld p HD (delete_keys_in _ ss Ls Ld p (Hsub p Hp))) as [Htp _].
    destruct (prefixes_of_visible incl (d_fs D) p q Htp Hpne Hq) as [Hfq _]. split; [exact Hfq|].
    intros Hqin. apply Hord; auto.
    apply (delete_order (cf_diff cfg) ss Ls Ld (proj1 HD) HpfD q p (Hsub q Hqin) (Hsub p Hp) Hq). }
  assert (HL1 : LInv ft (d_fs D) r1 [] cl').
  { intros q t k Hl. rewrite Hfs1 in Hl. right; right; left. split; [exact Hl|intros []]. }
  destruct (delete_phase (cf_fl cfg) ft (d_fs D) dl' r1 [] cl' NdD HinvD HL1) as (E2 & L2).
  set (r2 := run_steps (cf_fl cfg) ft r1 (map (fun e => DestCmd (delete_cmd e)) dl')) in *.
  (* the copy phase *)
  assert (Hbel : forall s, In s (flat_map (copy_steps chunker S) cl') -> belongs cl' s).
  { intros s Hs0. apply in_flat_map in Hs0 as (e & He & Hs0). eapply copy_steps_belong; eauto. }
  apply (copy_steps_all (cf_fl cfg) ft (d_fs D) dl' cl' (rev (map fst dl') ++ [])); try assumption.
  - intros q Hq. apply in_or_app. left. apply in_rev. rewrite rev_involutive. exact Hq.
  - split; [rewrite E2; exact Hnt1|exact L2].
Qed.

Theorem all_runs_confined cfg S D ans bits ls ld ft :
  valid_listing S ls -> valid_listing (d_fs D) ld ->
  parents_first (lkeys (side_listing S ls)) -> parents_first (lkeys (side_listing (d_fs D) ld)) ->
  wf_fs (d_fs D) -> no_through (d_events D) ->
  let r := sync_one cfg S D ans bits ls ld ft in
  r_skipped r = [] ->
  no_through (d_events (r_dest r)).
Proof. intros; apply no_run_goes_through_a_link; assumption. Qed.

Theorem clean_run_confined cfg S D ans bits ls ld ft :
  valid_listing S ls -> valid_listing (d_fs D) ld ->
  parents_first (lkeys (side_listing S ls)) -> parents_first (lkeys (side_listing (d_fs D) ld)) ->
  wf_fs (d_fs D) -> d_open D = None -> no_through (d_events D) ->
  let r := sync_one cfg S D ans bits ls ld ft in
  r_ok r = true -> r_skipped r = [] -> r_root_skipped r = false -> cf_dry cfg = false ->
  no_through (d_events (r_dest r)).
Proof. intros; apply no_run_goes_through_a_link; assumption. Qed.

(* C01 without the premise that nothing went through a link (no_through): whatever the clock, the filter, the normaliser, the chunker and the two
   listings (valid, parents first), a sync that returns Ok without skips mirrors the source. *)
Theorem sync_mirrors dest_fl cfg S D ans bits ls ld ft :
  valid_listing S ls -> valid_listing (d_fs D) ld ->
  parents_first (lkeys (side_listing S ls)) -> parents_first (lkeys (side_listing (d_fs D) ld)) ->
  wf_fs S -> wf_fs (d_fs D) -> src_times_set S -> links_roundtrip normalize dest_fl S ->
  d_open D = None -> no_through (d_events D) ->
  let r := sync_one cfg S D ans bits ls ld ft in
  r_ok r = true -> r_skipped r = [] -> r_root_skipped r = false -> cf_dry cfg = false -> cf_fl cfg = dest_fl ->
  mirror now_z incl normalize (cf_diff cfg) dest_fl S (d_fs D) (d_fs (r_dest r)).
Proof.
  intros HvS HvD HpS HpD HwS HwD Hts Hl Hop Hnt. cbv zeta. intros Hok Hsk Hrs Hdry Hfl.
  apply (mirror_theorem now_z incl normalize chunker chunker_ok dest_fl cfg S D ans bits ls ld ft); try assumption.
  apply no_run_goes_through_a_link; assumption.
Qed.

End AllRuns.
