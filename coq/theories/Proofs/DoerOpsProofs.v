(* Arbitrary command sequences against the doer model (Model/DoerOps.v) - not only what a boss would send:
   the per-command lemmas of FsProofs / WfProofs lifted over any list of commands. *)
From RJ Require Import Base.Prelude Model.Settings Model.Core Model.Fs Model.DoerOps Proofs.FsProofs Proofs.ExecProofs Proofs.WfProofs.

Lemma doer_run_length fl : forall cs st, length (snd (doer_run fl st cs)) = length cs.
Proof.
  induction cs as [|c cs IH]; intros st; cbn [doer_run]; [reflexivity|].
  destruct (doer_exec fl st c) as [st1 r] eqn:E. specialize (IH st1). destruct (doer_run fl st1 cs) as [st2 rs]. cbn [snd length] in *. lia.
Qed.

Lemma doer_run_exec_all fl : forall cs st, fst (doer_run fl st cs) = exec_all fl st cs.
Proof.
  induction cs as [|c cs IH]; intros st; cbn [doer_run exec_all]; [reflexivity|]. rewrite <- IH.
  destruct (doer_exec fl st c) as [st1 r]. cbn [fst]. destruct (doer_run fl st1 cs). reflexivity.
Qed.

Theorem doer_run_frame fl : forall cs st p,
  Forall (fun c => cmd_path c <> Some p) cs -> fget (d_fs (fst (doer_run fl st cs))) p = fget (d_fs st) p.
Proof. intros cs st p H. rewrite doer_run_exec_all. apply exec_all_frame. apply Forall_forall. exact H. Qed.

Theorem doer_run_wfu fl : forall cs st, wfu (d_fs st) -> wfu (d_fs (fst (doer_run fl st cs))).
Proof.
  intros cs st. rewrite doer_run_exec_all. revert st.
  induction cs as [|c cs IH]; intros st H; [exact H|]. apply IH, doer_exec_wfu, H.
Qed.

Fixpoint state_before (fl : flavour) (st : dstate) (cs : list cmd) (k : nat) : dstate :=
  match k, cs with
  | S k', c :: rest => state_before fl (fst (doer_exec fl st c)) rest k'
  | _, _ => st
  end.

Theorem doer_run_errors fl : forall cs st k c e,
  nth_error cs k = Some c -> nth_error (snd (doer_run fl st cs)) k = Some (Some e) -> e <> EWrite ->
  d_fs (fst (doer_exec fl (state_before fl st cs k) c)) = d_fs (state_before fl st cs k).
Proof.
  induction cs as [|c0 cs IH]; intros st k c e Hc Hr Hne; [destruct k; discriminate|].
  cbn [doer_run] in Hr. destruct (doer_exec fl st c0) as [st1 r] eqn:E.
  destruct (doer_run fl st1 cs) as [st2 rs] eqn:E2. cbn [snd] in Hr.
  destruct k as [|k].
  - cbn in Hc, Hr. inversion Hc; subst c0. inversion Hr; subst r. cbn [state_before]. rewrite E. cbn [fst].
    eapply doer_exec_err_fs; eassumption.
  - cbn [nth_error] in Hc, Hr. cbn [state_before]. rewrite E. cbn [fst].
    apply (IH st1 k c e Hc); [|exact Hne]. rewrite E2. exact Hr.
Qed.

Example doer_ops_example :
  let f : fs := [([], NFolder); ([["f"%char]], NFile (TSet 5) ["x"%char]); ([["d"%char]], NFolder); ([["l"%char]], NLink ["f"%char] SKFile)] in
  snd (doer_ops f [CCreateFolder [["f"%char]]; CDeleteFolder [["f"%char]]; CDeleteFile [["d"%char]]; CCreateFolder [["d"%char]; ["n"%char]];
                   CDeleteFolder [["d"%char]]; CDeleteSymlink [["l"%char]] SKFile; CCreateSymlink [["l"%char]] SKUnknown (TRaw ["z"%char])])
  = [Some EExist; Some ENotDir; Some EIsDir; Some ERefused; Some ERefused; None; None].
  (* the failed deletion of d (a folder is not a file) is remembered: everything queued for d or below it is refused *)
Proof. vm_compute. reflexivity. Qed.
