(* C07: what exit status 0 means, that no error reply is ever dropped, and that the summary of a
   successful run is the census of the commands that were carried out. *)
From RJ Require Import Base.Prelude Base.OrderedPlan Model.Settings Model.Core Model.Fs Model.Sync
  Proofs.FsProofs Proofs.SyncProofs Proofs.ExecProofs Proofs.DryProofs Proofs.MirrorProofs Proofs.CrashProofs Proofs.CrashMain.

Section Errors.
Variable fl : flavour.
Variable ft : faults.

Lemma run_steps_keeps_errors steps r e : In e (rs_errs r) -> In e (rs_errs (run_steps fl ft r steps)).
Proof.
  intros H. destruct (run_steps_errs fl ft steps r) as (l & E). rewrite E. apply in_or_app. left; exact H.
Qed.

Lemma executed_error_recorded r s c e :
  executes ft r s = Some c -> snd (doer_exec fl (rs_d r) c) = Some e -> In e (rs_errs (run_step fl ft r s)).
Proof.
  intros Hx He. pose proof (executes_some ft r s c Hx) as ->. unfold executes in Hx. unfold run_step.
  destruct (rs_srcfail r); [discriminate|].
  assert (Hdo : In e (rs_errs (do_step fl ft r (DestCmd c)))).
  { unfold do_step. cbv zeta.
    destruct (rs_budget r) as [[|k]|]; try discriminate;
      unfold stopped, injected in Hx;
      destruct (mutating c && match ft_stop ft with Some n => Nat.leb n (rs_mut r) | None => false end); try discriminate;
      destruct (mutating c && negb (is_chunk c) && mem_nat (rs_mut r) (ft_dest ft)); try discriminate;
      rewrite He; cbn [rs_errs]; apply in_or_app; right; left; reflexivity. }
  destruct (rs_budget r) as [[|k]|]; [discriminate|exact Hdo|exact Hdo].
Qed.

(* a step that is reached, executed and answered with an error leaves its mark on the final error list *)
Theorem error_reaches_the_end pre s rest r c e :
  executes ft (run_steps fl ft r pre) s = Some c ->
  snd (doer_exec fl (rs_d (run_steps fl ft r pre)) c) = Some e ->
  In e (rs_errs (run_steps fl ft r (pre ++ s :: rest))).
Proof.
  intros Hx He. rewrite run_steps_app.
  change (run_steps fl ft (run_steps fl ft r pre) (s :: rest))
    with (run_steps fl ft (run_step fl ft (run_steps fl ft r pre) s) rest).
  apply run_steps_keeps_errors. eapply executed_error_recorded; eauto.
Qed.

End Errors.

Definition nobytes (s : stats) : stats :=
  mkStats (st_files_deleted s) 0 (st_folders_deleted s) (st_symlinks_deleted s)
          (st_files_copied s) 0 (st_folders_created s) (st_symlinks_copied s).
Definition dummy_target : target := TRaw [].
Definition census_step (s : stats) (c : cmd) : stats :=
  match c with
  | CDeleteFile _ => stats_delete s (EFile 0 0)
  | CDeleteFolder _ => stats_delete s EFolder
  | CDeleteSymlink _ k => stats_delete s (ESymlink k dummy_target)
  | CCreateOrUpdateFile _ _ _ false => stats_copy s (EFile 0 0)        (* the chunk that completes a file *)
  | CCreateFolder _ => stats_copy s EFolder
  | CCreateSymlink _ k t => stats_copy s (ESymlink k t)
  | _ => s
  end.
Definition census (cmds : list cmd) : stats := fold_left census_step cmds stats0.

Lemma nobytes_delete s e :
  nobytes (stats_delete s e) = match e with
                               | EFile _ _ => stats_delete (nobytes s) (EFile 0 0)
                               | EFolder => stats_delete (nobytes s) EFolder
                               | ESymlink k t => stats_delete (nobytes s) (ESymlink k t)
                               end.
Proof. destruct e; reflexivity. Qed.
Lemma nobytes_copy s e :
  nobytes (stats_copy s e) = match e with
                             | EFile _ _ => stats_copy (nobytes s) (EFile 0 0)
                             | EFolder => stats_copy (nobytes s) EFolder
                             | ESymlink k t => stats_copy (nobytes s) (ESymlink k t)
                             end.
Proof. destruct e; reflexivity. Qed.

Section Census.
Variable chunker : str -> list str.
Hypothesis chunker_ok : forall d, chunker d <> [] /\ concat (chunker d) = d.
Notation exec_steps := (exec_steps chunker).
Notation copy_steps := (copy_steps chunker).

Lemma census_chunks p mt chunks : chunks <> [] -> forall acc,
  fold_left census_step (dest_cmds (chunk_cmds p mt chunks)) acc = stats_copy acc (EFile 0 0).
Proof.
  induction chunks as [|c rest IH]; intros Hne acc; [congruence|].
  destruct rest as [|c2 rest']; [reflexivity|].
  change (chunk_cmds p mt (c :: c2 :: rest')) with (DestCmd (CCreateOrUpdateFile p c None true) :: chunk_cmds p mt (c2 :: rest')).
  cbn [dest_cmds flat_map app fold_left census_step]. apply IH. discriminate.
Qed.

Lemma census_deletes dl : forall acc,
  fold_left census_step (map delete_cmd dl) (nobytes acc) =
  nobytes (fold_left (fun s e => stats_delete s (fst (snd e))) dl acc).
Proof.
  induction dl as [|[p [e r]] dl IH]; intros acc; cbn [map fold_left fst snd]; [reflexivity|].
  rewrite <- IH. f_equal. rewrite nobytes_delete. destruct e; reflexivity.
Qed.

Lemma census_copies S cl :
  (forall p mt sz r, In (p, (EFile mt sz, r)) cl -> exists m d, fget S p = Some (NFile m d)) ->
  forall acc,
  fold_left census_step (dest_cmds (flat_map (copy_steps S) cl)) (nobytes acc) =
  nobytes (fold_left (fun s e => stats_copy s (fst (snd e))) cl acc).
Proof.
  induction cl as [|[p [e r]] cl IH]; intros Hsrc acc; cbn [flat_map fold_left fst snd]; [reflexivity|].
  unfold dest_cmds in *. rewrite flat_map_app, fold_left_app.
  rewrite <- IH by (intros; eapply Hsrc; right; eauto). f_equal.
  rewrite nobytes_copy. destruct e as [mt sz| |k t]; cbn [Sync.copy_steps].
  - destruct (Hsrc p mt sz r (or_introl eq_refl)) as (m & d & ->).
    cbn [flat_map app]. apply (census_chunks p mt (chunker d)). apply chunker_ok.
  - reflexivity.
  - reflexivity.
Qed.

Theorem plan_stats_is_census S a :
  (forall p mt sz r, In (p, (EFile mt sz, r)) (a_copy a) -> exists m d, fget S p = Some (NFile m d)) ->
  nobytes (plan_stats a) = census (dest_cmds (exec_steps S a)).
Proof.
  intros Hsrc. unfold plan_stats, census, Sync.exec_steps, dest_cmds. rewrite flat_map_app, fold_left_app.
  rewrite <- (census_copies S (a_copy a) Hsrc). f_equal.
  assert (Hm : flat_map (fun s => match s with DestCmd c => [c] | SrcFetch _ => [] end)
                 (map (fun e => DestCmd (delete_cmd e)) (a_delete a)) = map delete_cmd (a_delete a)).
  { induction (a_delete a) as [|e l IHl]; cbn; [reflexivity|]. f_equal. exact IHl. }
  rewrite Hm. symmetry. exact (census_deletes (a_delete a) stats0).
Qed.

End Census.

Section SyncReport.
Variable now_z : N -> Z.
Variable normalize : str -> target.
Variable chunker : str -> list str.
Notation sync_one := (sync_one now_z normalize chunker).
Notation sync_plan := (sync_plan now_z normalize chunker).
Notation exec_steps := (exec_steps chunker).

(* sync() returns Ok (no dry run, the root not skipped) only if EVERY step of the confirmed plan was
   performed: every planned command was sent, executed and answered without an error, every source file
   was fetched, and the destination is exactly the result of executing them all. *)
Theorem exit0_all_applied cfg S D ans bits ls ld ft :
  let r := sync_one cfg S D ans bits ls ld ft in
  let pl := sync_plan cfg S D ans bits ls ld in
  r_ok r = true -> cf_dry cfg = false -> r_root_skipped r = false ->
  exists acts pre,
    snd pl = pre ++ exec_steps S acts /\ (pre = [] \/ pre = [DestCmd CCreateRootAncestors]) /\
    r_stats r = plan_stats acts /\
    r_dest r = exec_all (cf_fl cfg) D (dest_cmds (snd pl)) /\ all_ok (cf_fl cfg) D (dest_cmds (snd pl)) /\
    (exists t0, r_dest_trace r = t0 ++ dest_cmds (snd pl)) /\
    (exists s0, r_src_trace r = s0 ++ src_fetches (snd pl)) /\
    r_errs r = [] /\ r_src_failed r = false.
Proof.
  cbv zeta. intros Hok Hdry Hrs. revert Hok Hrs.
  destruct (sync_one_plan now_z normalize chunker cfg S D ans bits ls ld ft) as [Hs|sn skip np Hs Hg|sn ans1 np1 steps r Hs Hg
    [Ha|acts Ha Hc|acts acts' sk b2 a2 np Ha Hc Hd|acts acts' sk b2 a2 np Ha Hc Hd]];
    try (cbn; discriminate); try (destruct skip; cbn; discriminate); try congruence.
  rewrite start_then. cbn [snd r_ok r_root_skipped r_stats r_dest r_dest_trace r_src_trace r_errs r_src_failed]. intros Hok _.
  destruct (ok_run_clean _ _ _ _ _ _ Hok) as (E1 & E2 & E3 & E4 & E5 & E6).
  exists acts', (start_steps (cf_dry cfg) (option_map (entry_of now_z normalize) (fget (d_fs D) []))).
  split; [reflexivity|]. split; [apply start_steps_shape|]. repeat split; eauto.
Qed.

End SyncReport.

Section SyncFailure.
Variable now_z : N -> Z.
Variable normalize : str -> target.
Variable chunker : str -> list str.
Notation sync_one := (sync_one now_z normalize chunker).

Theorem failure_is_reported cfg S D ans bits ls ld ft :
  let r := sync_one cfg S D ans bits ls ld ft in
  r_errs r <> [] \/ r_src_failed r = true -> r_ok r = false.
Proof.
  cbv zeta.
  destruct (sync_one_cases now_z normalize chunker cfg S D ans bits ls ld ft) as (pl & [Hs|sn skip np Hs Hg|sn ans1 np1 steps r Hs Hg
    [Ha|acts Ha Hc|acts acts' sk b2 a2 np Ha Hc Hd|acts acts' sk b2 a2 np Ha Hc Hd]]);
    cbn [fail_result r_errs r_src_failed r_ok andb negb]; intros [H|H]; try reflexivity; try congruence.
  - destruct (rs_errs _); [congruence|reflexivity].
  - rewrite H. destruct (rs_errs _); reflexivity.
Qed.

End SyncFailure.
