(* The sync theorems with the listing premises discharged by the directory walk (C17): the boss is given
   what ANY execution of the N-worker walk delivers on each side (Proofs/WalkBridge.v), instead of an
   assumed valid parents-first listing. *)
From RJ Require Import Base.Prelude Base.OrderedPlan Model.Settings Model.Core Model.Fs Model.Sync
  Spec.PlanSpec Spec.Mirror Proofs.PathLemmas Proofs.MirrorProofs Proofs.PlanCProofs Proofs.InstanceProofs
  Proofs.ExecProofs Proofs.ConfineAll Proofs.WalkBridge Proofs.CrashProofs Proofs.CrashMain Proofs.WfProofs Proofs.KillEvents
  Proofs.IdemMain Proofs.TouchedProofs Proofs.ConfirmProofs Proofs.ConsentAll.
From RJ Require Model.Walker Proofs.WalkerProofs.

Section Walked.
Variable now_z : N -> Z.
Variable incl : path -> bool.
Variable normalize : str -> target.
Notation valid_listing := (valid_listing now_z incl normalize).
Notation side_listing := (side_listing now_z normalize).

(* l is what a doer answers to GetEntries on tree f: for a folder root, what some execution of the walk
   (any number of workers N, any result-queue capacity C, any interleaving) delivered before its
   end-of-list marker, completed with the entry details; the boss asks for no entries otherwise. *)
Definition walked (f : fs) (l : listing) : Prop :=
  match fget f [] with
  | Some NFolder => exists N C s, N >= 1 /\ W.reach N C (tree_of_fs incl f) s /\ W.cons s = W.CEos /\
                                  l = with_details now_z normalize f (W.recvd s)
  | _ => l = []
  end.

Lemma root_first (l : list path) : parents_first l -> parents_first ([] :: l).
Proof.
  intros Hpf a b Ha Hb Hpre.
  destruct Hb as [<-|Hb].
  { apply strict_prefix_iff in Hpre as (k & Hk & _). cbn in Hk. lia. }
  destruct Ha as [<-|Ha]; [apply before_here; exact Hb|].
  apply before_skip. apply Hpf; assumption.
Qed.

Theorem walked_valid f l : wf_fs f -> walked f l ->
  valid_listing f l /\ parents_first (lkeys (side_listing f l)).
Proof.
  intros Hwf Hw. unfold walked in Hw. unfold Mirror.side_listing.
  destruct (fget f []) as [[mt d| |t sk]|] eqn:Er.
  2:{ destruct Hw as (N & C & s & HN & Hreach & Heos & ->).
      destruct (walker_listing_valid incl now_z normalize f N C s HN Er Hreach Heos) as [Hv Hpf].
      split; [exact Hv|]. cbn [lkeys map fst]. apply root_first. exact Hpf. }
  all: subst l; split;
    [ apply valid_listing_nil; [exact Hwf|congruence]
    | cbn [lkeys map fst]; intros a b Ha Hb Hpre ].
  1,2: destruct Ha as [<-|[]]; destruct Hb as [<-|[]]; apply strict_prefix_iff in Hpre as (k & Hk & _); cbn in Hk; lia.
  destruct Ha.
Qed.

(* such an answer exists for every tree, and every execution of the walk that runs until nothing is
   enabled produces one (no unreadable folders in the model tree) *)
Theorem walked_exists f : exists l, walked f l.
Proof.
  unfold walked. destruct (fget f []) as [[mt d| |t sk]|] eqn:Er; try (exists []; reflexivity).
  destruct (WalkerProofs.run_to_final 1 1 (le_n 1) (le_n 1) (tree_of_fs incl f) _ (W.r_init 1 1 (tree_of_fs incl f)))
    as (s & Hreach & _ & Hstuck).
  destruct (walker_run_ends_with_listing incl now_z normalize f 1 1 s (le_n 1) (le_n 1) Er Hreach Hstuck) as (Heos & _).
  exists (with_details now_z normalize f (W.recvd s)), 1, 1, s. auto.
Qed.

Variable chunker : str -> list str.
Hypothesis chunker_ok : forall d, chunker d <> [] /\ concat (chunker d) = d.
Notation sync_one := (sync_one now_z normalize chunker).

(* C02 / C12 with walked listings: no run resolves a path through a destination link. *)
Theorem walked_sync_never_through cfg S D ans bits ls ld ft :
  wf_fs S -> wf_fs (d_fs D) -> no_through (d_events D) ->
  walked S ls -> walked (d_fs D) ld ->
  no_through (d_events (r_dest (sync_one cfg S D ans bits ls ld ft))).
Proof.
  intros HwS HwD Hnt HS HD.
  destruct (walked_valid S ls HwS HS) as [HvS HpS].
  destruct (walked_valid (d_fs D) ld HwD HD) as [HvD HpD].
  apply (no_run_goes_through_a_link now_z incl normalize chunker); assumption.
Qed.

(* C01 with walked listings, and with the premise "nothing went through a link" discharged by the theorem
   above: a sync that returns Ok without skips mirrors the source. *)
Theorem walked_sync_mirrors dest_fl cfg S D ans bits ls ld ft :
  wf_fs S -> wf_fs (d_fs D) -> src_times_set S -> links_roundtrip normalize dest_fl S ->
  d_open D = None -> no_through (d_events D) ->
  walked S ls -> walked (d_fs D) ld ->
  let r := sync_one cfg S D ans bits ls ld ft in
  r_ok r = true -> r_skipped r = [] -> r_root_skipped r = false -> cf_dry cfg = false -> cf_fl cfg = dest_fl ->
  mirror now_z incl normalize (cf_diff cfg) dest_fl S (d_fs D) (d_fs (r_dest r)).
Proof.
  intros HwS HwD Hts Hl Hop Hnt HS HD. cbv zeta. intros Hok Hsk Hrs Hdry Hfl.
  destruct (walked_valid S ls HwS HS) as [HvS HpS].
  destruct (walked_valid (d_fs D) ld HwD HD) as [HvD HpD].
  apply (sync_mirrors now_z incl normalize chunker chunker_ok dest_fl cfg S D ans bits ls ld ft); assumption.
Qed.

(* C08 with walked listings, end to end: run a sync whose listings come from arbitrary executions of the walk,
   under ANY fault plan; let it end (Ok or failed) or kill the doer in any state a kill can leave behind.
   That state is a well-formed tree satisfying Good in which nothing went through a link, and a second sync
   started by a fresh doer on it - again with walked listings - mirrors the source whenever it returns Ok
   without skips; every source file then has its bytes and time on the destination (up to C01's own
   exemption of a file that carried the source's time before the first run). *)
Theorem walked_crash_states cfg S D ans bits ls ld ft s :
  wf_fs S -> wf_fs (d_fs D) -> unique_keys (d_fs D) -> d_open D = None -> no_through (d_events D) ->
  walked S ls -> walked (d_fs D) ld ->
  (In s (sync_kill_states now_z normalize chunker cfg S D ans bits ls ld ft) \/
   s = r_dest (sync_one cfg S D ans bits ls ld ft)) ->
  Good S (d_fs D) s /\ wf_fs (d_fs s) /\ unique_keys (d_fs s) /\ no_through (d_events s).
Proof.
  intros HwS HwD HuD Hop Hnt0 HS HD Hs.
  destruct (walked_valid S ls HwS HS) as [HvS HpS].
  destruct (walked_valid (d_fs D) ld HwD HD) as [HvD HpD].
  destruct (kill_states_good now_z incl normalize chunker chunker_ok cfg S D ans bits ls ld ft HvS HvD HpS HpD HwD Hnt0 Hop) as [G1 G2].
  assert (Hwfu : (forall x, In x (sync_kill_states now_z normalize chunker cfg S D ans bits ls ld ft) -> wfu (d_fs x)) /\
                 wfu (d_fs (r_dest (sync_one cfg S D ans bits ls ld ft)))).
  { unfold sync_kill_states. rewrite (sync_one_runs_plan now_z normalize chunker).
    apply (steps_wfu (cf_fl cfg) ft). rewrite (sync_plan_start now_z normalize chunker). split; assumption. }
  destruct Hwfu as [K1 K2].
  destruct Hs as [Hin| ->].
  - destruct (G1 s Hin) as [HG Hnt]. destruct (K1 s Hin) as [Hw Hu]. auto.
  - destruct K2 as [Hw Hu]. pose proof (walked_sync_never_through cfg S D ans bits ls ld ft HwS HwD Hnt0 HS HD) as Hnt. auto.
Qed.

Theorem walked_rerun_repairs dest_fl cfg S D ans bits ls ld ft s cfg2 ans2 bits2 ls2 ld2 ft2 :
  wf_fs S -> src_times_set S -> links_roundtrip normalize dest_fl S ->
  wf_fs (d_fs D) -> unique_keys (d_fs D) -> d_open D = None -> no_through (d_events D) ->
  walked S ls -> walked (d_fs D) ld ->
  (In s (sync_kill_states now_z normalize chunker cfg S D ans bits ls ld ft) \/
   s = r_dest (sync_one cfg S D ans bits ls ld ft)) ->
  walked S ls2 -> walked (d_fs s) ld2 ->
  let r2 := sync_one cfg2 S (reboot s) ans2 bits2 ls2 ld2 ft2 in
  r_ok r2 = true -> r_skipped r2 = [] -> r_root_skipped r2 = false -> cf_dry cfg2 = false -> cf_fl cfg2 = dest_fl ->
  mirror now_z incl normalize (cf_diff cfg2) dest_fl S (d_fs s) (d_fs (r_dest r2)) /\
  forall p t b, takes_part incl S p -> fget S p = Some (NFile (TSet t) b) -> (forall k, now_z k <> t) ->
    fget (d_fs (r_dest r2)) p = Some (NFile (TSet t) b) \/
    exists b0, fget (d_fs D) p = Some (NFile (TSet t) b0) /\ fget (d_fs (r_dest r2)) p = Some (NFile (TSet t) b0).
Proof.
  intros HwS Hts Hlk HwD HuD Hop Hnt0 HS HD Hs HS2 HD2. cbv zeta. intros Hok Hsk Hrs Hdry Hfl.
  destruct (walked_crash_states cfg S D ans bits ls ld ft s HwS HwD HuD Hop Hnt0 HS HD Hs) as (HG & Hws & Hus & Hnts).
  destruct (walked_valid S ls2 HwS HS2) as [HvS _].
  destruct (walked_valid (d_fs s) ld2 Hws HD2) as [HvD _].
  apply (rerun_repairs now_z incl normalize chunker chunker_ok dest_fl cfg2 S (d_fs D) s ans2 bits2 ls2 ld2 ft2); try assumption.
  apply (walked_sync_never_through cfg2 S (reboot s) ans2 bits2 ls2 ld2 ft2); try assumption; reflexivity.
Qed.

(* C04 with walked listings: after a sync that returned Ok without skips, a second one (its destination
   listing again delivered by some execution of the walk over the tree the first one left) does nothing. *)
Theorem walked_sync_twice dest_fl cfg S D ans bits ls ld ft ans2 bits2 ld2 ft2 :
  wf_fs S -> src_times_set S -> links_roundtrip normalize dest_fl S ->
  wf_fs (d_fs D) -> unique_keys (d_fs D) -> d_open D = None -> no_through (d_events D) ->
  walked S ls -> walked (d_fs D) ld ->
  let r := sync_one cfg S D ans bits ls ld ft in
  r_ok r = true -> r_skipped r = [] -> r_root_skipped r = false -> cf_dry cfg = false -> cf_fl cfg = dest_fl ->
  b_same (cf_b cfg) = BSkip ->
  walked (d_fs (r_dest r)) ld2 ->
  let r2 := sync_one cfg S (r_dest r) ans2 bits2 ls ld2 ft2 in
  r_ok r2 = true /\ r_dest r2 = r_dest r /\ filter mutating (r_dest_trace r2) = [] /\
  (forall p, ~ In (CGetFileContent p) (r_src_trace r2)) /\ r_prompts r2 = [] /\ stats_nothing (r_stats r2) = true.
Proof.
  intros HwS Hts Hlk HwD HuD Hop Hnt0 HS HD. cbv zeta. intros Hok Hsk Hrs Hdry Hfl Hsame HD2.
  destruct (walked_crash_states cfg S D ans bits ls ld ft _ HwS HwD HuD Hop Hnt0 HS HD (or_intror eq_refl)) as (_ & Hw2 & _ & Hnt).
  destruct (walked_valid S ls HwS HS) as [HvS _].
  destruct (walked_valid (d_fs D) ld HwD HD) as [HvD _].
  destruct (walked_valid _ ld2 Hw2 HD2) as [HvD2 _].
  apply (sync_twice now_z incl normalize chunker chunker_ok dest_fl cfg S D ans bits ls ld ft ans2 bits2 ld2 ft2); assumption.
Qed.

(* C03 end to end with walked listings: a changed existing destination entry had its category's consent. *)
Theorem walked_consent cfg S D ans bits ls ld :
  wf_fs S -> wf_fs (d_fs D) -> d_open D = None ->
  walked S ls -> walked (d_fs D) ld ->
  let steps := snd (sync_plan now_z normalize chunker cfg S D ans bits ls ld) in
  forall s, Touched (cf_fl cfg) S (d_fs D) (cmd_of_plan steps) (file_of_plan steps) s ->
  forall p n, fget (d_fs D) p = Some n -> fget (d_fs s) p <> Some n ->
    entry_consent cfg ans \/
    ((exists m d m' d', n = NFile m d /\ fget (d_fs s) p = Some (NFile m' d')) /\ overwrite_consent cfg ans).
Proof.
  intros HwS HwD Hop HS HD.
  destruct (walked_valid S ls HwS HS) as [HvS _].
  destruct (walked_valid (d_fs D) ld HwD HD) as [HvD _].
  exact (consent_end_to_end now_z incl normalize chunker cfg S D ans bits ls ld HvS HvD HwD Hop).
Qed.
End Walked.
