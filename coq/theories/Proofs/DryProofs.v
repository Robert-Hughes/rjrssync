(* --dry-run: inert, and predicts the real run (C05); exit status 0 means every planned step was
   performed (used by C07 as well). *)
From RJ Require Import Base.Prelude Base.OrderedPlan Model.Settings Model.Core Model.Fs Model.Sync
  Spec.PlanSpec Proofs.FsProofs Proofs.StepProofs Proofs.SyncProofs.

Definition with_dry (c : config) (d : bool) : config :=
  mkCfg (cf_diff c) (cf_fl c) (cf_b c) (cf_root c) d.

Definition dest_cmds (steps : list bstep) : list cmd :=
  flat_map (fun s => match s with DestCmd c => [c] | SrcFetch _ => [] end) steps.
Definition src_fetches (steps : list bstep) : list cmd :=
  flat_map (fun s => match s with DestCmd _ => [] | SrcFetch p => [CGetFileContent p] end) steps.

(* what a dry run prints for a step list: one line per action, keyed by kind and path *)
Inductive wkind := WKDelete | WKCopy | WKFolder | WKLink.
Definition would_key (w : would) : wkind * path :=
  match w with WDelete p _ => (WKDelete, p) | WCopyFile p => (WKCopy, p) | WCreateFolder p => (WKFolder, p) | WCreateSymlink p => (WKLink, p) end.
Definition step_key (s : bstep) : list (wkind * path) :=
  match s with
  | SrcFetch p => [(WKCopy, p)]
  | DestCmd (CDeleteFile p) | DestCmd (CDeleteFolder p) | DestCmd (CDeleteSymlink p _) => [(WKDelete, p)]
  | DestCmd (CCreateFolder p) => [(WKFolder, p)]
  | DestCmd (CCreateSymlink p _ _) => [(WKLink, p)]
  | DestCmd _ => []
  end.

Section Dry.
Variable now_z : N -> Z.
Variable normalize : str -> target.
Variable chunker : str -> list str.
Notation sync_one := (sync_one now_z normalize chunker).
Notation entry_of := (entry_of now_z normalize).

Lemma app_self_nil {A} (l x : list A) : l ++ x = l -> x = [].
Proof. intros H. apply (app_inv_head l). rewrite app_nil_r. exact H. Qed.

Lemma do_step_mono fl ft r s :
  (exists l, rs_errs (do_step fl ft r s) = rs_errs r ++ l) /\
  (rs_budget r = None -> rs_errs (do_step fl ft r s) = rs_errs r -> rs_budget (do_step fl ft r s) = None).
Proof.
  unfold do_step. destruct s as [c|p].
  - destruct (snd _) eqn:E; cbn [rs_errs rs_budget].
    + split; [eexists; reflexivity|]. intros _ H. apply app_self_nil in H. discriminate.
    + split; [exists []; rewrite app_nil_r; reflexivity|]. intros -> _. reflexivity.
  - cbn [rs_errs rs_budget]. split; [exists []; rewrite app_nil_r; reflexivity|]. intros -> _. reflexivity.
Qed.

(* a step that records no error was sent, and read what it had to read *)
Lemma do_step_sent_ok fl ft r s :
  rs_errs (do_step fl ft r s) = rs_errs r ->
  rs_sent (do_step fl ft r s) = rs_sent r ++ dest_cmds [s] /\ rs_src (do_step fl ft r s) = rs_src r ++ src_fetches [s].
Proof.
  unfold do_step. destruct s as [c|p]; cbn [dest_cmds src_fetches flat_map app]; [|rewrite app_nil_r; auto].
  destruct (snd _); cbn [rs_errs rs_sent rs_src]; intros H; [apply app_self_nil in H; discriminate|rewrite app_nil_r; auto].
Qed.

Lemma run_step_errs fl ft r s : exists l, rs_errs (run_step fl ft r s) = rs_errs r ++ l.
Proof. destruct (run_step_cases fl ft r s) as [-> | ->]; [exists []; rewrite app_nil_r; reflexivity|apply do_step_mono]. Qed.
Lemma run_steps_errs fl ft steps : forall r, exists l, rs_errs (run_steps fl ft r steps) = rs_errs r ++ l.
Proof.
  intros r0. apply (run_steps_inv fl ft (fun r => exists l, rs_errs r = rs_errs r0 ++ l)); [|exists []; rewrite app_nil_r; reflexivity].
  intros r s (l1 & E1). destruct (run_step_errs fl ft r s) as (l2 & E2). exists (l1 ++ l2). rewrite E2, E1, app_assoc. reflexivity.
Qed.
Lemma run_step_srcfail fl ft r s : rs_srcfail r = true -> run_step fl ft r s = r.
Proof. unfold run_step. intros ->. reflexivity. Qed.
Lemma run_steps_srcfail fl ft steps : forall r, rs_srcfail r = true -> run_steps fl ft r steps = r.
Proof.
  intros r0 H. apply (run_steps_inv fl ft (fun r => r = r0)); [|reflexivity]. intros r s ->. apply run_step_srcfail, H.
Qed.

Lemma ok_clean (r : rstate) :
  match rs_errs r with [] => negb (rs_srcfail r) | _ => false end = true -> rs_errs r = [] /\ rs_srcfail r = false.
Proof. destruct (rs_errs r); [|discriminate]. destruct (rs_srcfail r); [discriminate|auto]. Qed.

(* its first step records no error and is not passed over, and what follows is again a run without any error *)
Lemma clean_run_cons fl ft r s steps :
  rs_budget r = None -> rs_srcfail r = false ->
  rs_errs (run_steps fl ft r (s :: steps)) = rs_errs r -> rs_srcfail (run_steps fl ft r (s :: steps)) = false ->
  let r' := do_step fl ft r s in
  run_steps fl ft r (s :: steps) = run_steps fl ft r' steps /\
  rs_errs r' = rs_errs r /\ rs_budget r' = None /\ rs_srcfail r' = false /\ rs_errs (run_steps fl ft r' steps) = rs_errs r'.
Proof.
  intros Hb Hs He Hf r'.
  assert (Estep : run_steps fl ft r (s :: steps) = run_steps fl ft r' steps)
    by (cbn [run_steps fold_left]; unfold run_step; rewrite Hs, Hb; reflexivity).
  rewrite Estep in *.
  destruct (run_steps_errs fl ft steps r') as (l2 & E2). destruct (do_step_mono fl ft r s) as [(l1 & E1) Hbud]. fold r' in E1, Hbud.
  rewrite E2, E1, <- app_assoc in He. apply app_self_nil, app_eq_nil in He as [-> ->]. rewrite app_nil_r in E1, E2.
  repeat split; auto.
  destruct (rs_srcfail r') eqn:Esf; [|reflexivity]. rewrite (run_steps_srcfail fl ft steps r' Esf) in Hf. congruence.
Qed.

Lemma run_steps_ok fl ft steps : forall r,
  rs_budget r = None -> rs_srcfail r = false ->
  rs_errs (run_steps fl ft r steps) = rs_errs r -> rs_srcfail (run_steps fl ft r steps) = false ->
  rs_sent (run_steps fl ft r steps) = rs_sent r ++ dest_cmds steps /\
  rs_src (run_steps fl ft r steps) = rs_src r ++ src_fetches steps /\
  rs_budget (run_steps fl ft r steps) = None.
Proof.
  induction steps as [|s steps IH]; intros r Hb Hs He Hf.
  - cbn. rewrite !app_nil_r. auto.
  - destruct (clean_run_cons fl ft r s steps Hb Hs He Hf) as (E & E1 & Hb' & Hs' & E2). rewrite E in *.
    destruct (IH _ Hb' Hs' E2 Hf) as (I1 & I2 & I3). destruct (do_step_sent_ok fl ft r s E1) as [S1 S2].
    rewrite I1, I2, I3, S1, S2, <- !app_assoc. unfold dest_cmds, src_fetches. cbn [flat_map]. rewrite !app_nil_r. auto.
Qed.

Lemma chunk_cmds_keys p mt chunks : flat_map step_key (chunk_cmds p mt chunks) = [].
Proof.
  induction chunks as [|c r IH]; [reflexivity|]. cbn [chunk_cmds].
  destruct r; [reflexivity|]. cbn [flat_map step_key app]. exact IH.
Qed.

Theorem would_lines_are_the_steps S a :
  flat_map step_key (exec_steps chunker S a) = map would_key (would_lines a).
Proof.
  unfold exec_steps, would_lines. rewrite flat_map_app, map_app. f_equal.
  - induction (a_delete a) as [|[p [e r]] l IH]; [reflexivity|].
    cbn [map flat_map]. rewrite IH. destruct e; reflexivity.
  - induction (a_copy a) as [|[p [e r]] l IH]; [reflexivity|].
    cbn [map flat_map]. rewrite flat_map_app, IH. f_equal.
    destruct e; cbn [copy_steps fst snd would_key].
    + destruct (fget S p) as [[mt' data| |]|]; cbn [flat_map step_key app]; rewrite ?chunk_cmds_keys; reflexivity.
    + reflexivity.
    + reflexivity.
Qed.

Theorem dry_run_inert cfg S D ans bits ls ld ft :
  cf_dry cfg = true ->
  let r := sync_one cfg S D ans bits ls ld ft in
  r_dest r = D /\ filter mutating (r_dest_trace r) = [] /\
  (forall p, ~ In (CGetFileContent p) (r_src_trace r)) /\ r_errs r = [].
Proof.
  intros Hdry. cbv zeta.
  destruct (sync_one_cases now_z normalize chunker cfg S D ans bits ls ld ft) as (pl & [Hs|sn skip np Hs Hg|sn ans1 np1 steps r Hs Hg Hp]).
  1,2: cbn; repeat split; auto; intros p [H|[]]; discriminate.
  rewrite start_state_idle in Hp by (left; exact Hdry).
  destruct Hp as [Ha|acts Ha Hc|acts acts' sk b2 a2 np Ha Hc Hd|acts acts' sk b2 a2 np Ha Hc Hd]; [| | |congruence];
    cbn [fail_result r_dest r_dest_trace r_src_trace r_errs rs_d rs_sent rs_src rs_errs];
    (repeat split; [apply listing_trace_no_mut|intros p; apply listing_trace_no_get]).
Qed.

Theorem dry_run_predicts cfg S D ans bits ls ld ft :
  let rd := sync_one (with_dry cfg true) S D ans bits ls ld ft in
  let rr := sync_one (with_dry cfg false) S D ans bits ls ld ft in
  r_prompts rd = r_prompts rr /\ r_skipped rd = r_skipped rr /\
  r_confirm_failed rd = r_confirm_failed rr /\ r_root_skipped rd = r_root_skipped rr /\
  (r_ok rr = true -> r_root_skipped rr = false ->
     exists acts,
       r_stats rd = plan_stats acts /\ r_stats rr = plan_stats acts /\
       map would_key (r_would rd) = flat_map step_key (exec_steps chunker S acts) /\
       (exists pre, r_dest_trace rr = pre ++ dest_cmds (exec_steps chunker S acts) /\
                    forall c, In c pre -> mutating c = true -> c = CCreateRootAncestors) /\
       (exists pre, r_src_trace rr = pre ++ src_fetches (exec_steps chunker S acts) /\
                    forall p, ~ In (CGetFileContent p) pre)).
Proof.
  cbv zeta.
  (* both runs are in the same phase: what decides it - source root, root gate, plan, confirmation - does not look at cf_dry *)
  destruct (sync_one_cases now_z normalize chunker (with_dry cfg true) S D ans bits ls ld ft) as (pld & [Hs|sn skip np Hs Hg|sn ans1 np1 stepsd rd Hs Hg Hd]);
    destruct (sync_one_cases now_z normalize chunker (with_dry cfg false) S D ans bits ls ld ft) as (plr & [Hs'|sn' skip' np' Hs' Hg'|sn' ans1' np1' stepsr rr Hs' Hg' Hr]);
    cbn [with_dry cf_diff cf_root cf_dry cf_fl cf_b] in *; try congruence.
  - cbn. repeat split; auto; discriminate.
  - rewrite Hs in Hs'. inversion Hs'; subst sn'. rewrite Hg in Hg'. inversion Hg'; subst skip' np'.
    destruct skip; cbn; repeat split; auto; discriminate.
  - rewrite Hs in Hs'. inversion Hs'; subst sn'. rewrite Hg in Hg'. inversion Hg'; subst ans1' np1'.
    destruct Hd as [Ha|acts Ha Hc|acts acts' sk b2 a2 np Ha Hc Hd|acts acts' sk b2 a2 np Ha Hc Hd];
      destruct Hr as [Ha'|acts0 Ha' Hc'|acts0 acts0' sk' b2' a2' np' Ha' Hc' Hd'|acts0 acts0' sk' b2' a2' np' Ha' Hc' Hd'];
      cbn [with_dry cf_diff cf_root cf_dry cf_fl cf_b] in *; try congruence;
      try (cbn; repeat split; auto; discriminate).
    rewrite Ha in Ha'. inversion Ha'; subst acts0. rewrite Hc in Hc'. inversion Hc'; subst acts0' sk' b2' a2' np'.
    rewrite start_then. set (droot := option_map entry_of (fget (d_fs D) [])) in *.
    set (r0 := mkR D _ _ [] false 0 0 None). set (steps := exec_steps chunker S acts'). set (pre := start_steps false droot).
    cbn [r_prompts r_skipped r_confirm_failed r_root_skipped r_ok r_stats r_would r_dest_trace r_src_trace].
    repeat split; auto. intros Hok _. apply ok_clean in Hok as [He Hf].
    destruct (run_steps_ok (cf_fl cfg) ft (pre ++ steps) r0 eq_refl eq_refl He Hf) as (X1 & X2 & _).
    unfold dest_cmds in X1. unfold src_fetches in X2. rewrite flat_map_app, app_assoc in X1, X2.
    subst r0. cbn [rs_sent rs_src] in X1, X2.
    exists acts'. repeat split; auto.
    + symmetry. apply would_lines_are_the_steps.
    + eexists. split; [exact X1|]. intros c Hc0 Hm. apply in_app_or in Hc0 as [Hc0|Hc0].
      * exfalso. assert (Hin : In c (filter mutating (listing_trace droot))) by (apply filter_In; auto).
        rewrite listing_trace_no_mut in Hin. exact Hin.
      * unfold pre in Hc0. destruct (start_steps_shape false droot) as [E|E]; rewrite E in Hc0; cbn in Hc0; intuition.
    + eexists. split; [exact X2|]. intros p Hc0. apply in_app_or in Hc0 as [Hc0|Hc0].
      * exact (listing_trace_no_get _ p Hc0).
      * unfold pre in Hc0. destruct (start_steps_shape false droot) as [E|E]; rewrite E in Hc0; cbn in Hc0; intuition discriminate.
Qed.

End Dry.
