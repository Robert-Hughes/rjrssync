(* Folding over the boss's steps: what is kept by every step is kept by a step list. *)
From RJ Require Import Base.Prelude Model.Core Model.Fs Model.Sync.

Section Steps.
Variable fl : flavour.
Variable ft : faults.

Lemma run_steps_cons r s rest : run_steps fl ft r (s :: rest) = run_steps fl ft (run_step fl ft r s) rest.
Proof. reflexivity. Qed.

(* a step is skipped (the source has failed, or the boss has noticed an error) or done *)
Lemma run_step_cases r s : run_step fl ft r s = r \/ run_step fl ft r s = do_step fl ft r s.
Proof. unfold run_step. destruct (rs_srcfail r); [left; reflexivity|]. destruct (rs_budget r) as [[|n]|]; auto. Qed.

Lemma run_steps_inv_in (I : rstate -> Prop) steps :
  (forall r s, In s steps -> I r -> I (run_step fl ft r s)) -> forall r, I r -> I (run_steps fl ft r steps).
Proof.
  induction steps as [|s rest IH]; intros Hstep r Hr; [exact Hr|].
  rewrite run_steps_cons. apply IH; [intros r' s' Hin; apply Hstep; right; exact Hin|].
  apply Hstep; [left; reflexivity|exact Hr].
Qed.

Lemma run_steps_inv (I : rstate -> Prop) :
  (forall r s, I r -> I (run_step fl ft r s)) -> forall steps r, I r -> I (run_steps fl ft r steps).
Proof. intros Hstep steps. apply run_steps_inv_in. intros r s _. apply Hstep. Qed.

End Steps.
