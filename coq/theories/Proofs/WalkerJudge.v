(* C17 - the executable judge [admits] (Model/Walker.v) decides exactly the postcondition that the
   theorems establish for a complete listing. *)
From RJ Require Import Base.Prelude Model.Walker Proofs.WalkerProofs.
From Coq Require Import Permutation.

Lemma kind_eqb_eq a b : kind_eqb a b = true <-> a = b.
Proof. destruct a, b; cbn [kind_eqb]; split; intros H; try reflexivity; discriminate. Qed.

Lemma path_eqb_eq a : forall b, path_eqb a b = true <-> a = b.
Proof.
  induction a as [|x a IH]; intros [|y b]; cbn [path_eqb]; split; intros H; try reflexivity; try discriminate.
  - apply andb_true_iff in H as [H1 H2]. apply str_eqb_eq in H1. apply IH in H2. subst. reflexivity.
  - injection H as -> ->. apply andb_true_iff. split; [apply str_eqb_refl|apply IH; reflexivity].
Qed.

Lemma entry_eqb_eq a b : entry_eqb a b = true <-> a = b.
Proof.
  destruct a as [p k], b as [q j]. unfold entry_eqb. cbn [fst snd]. rewrite andb_true_iff, path_eqb_eq, kind_eqb_eq.
  split; [intros [-> ->]; reflexivity|intros H; injection H as -> ->; auto].
Qed.

Lemma existsb_entry x l : existsb (entry_eqb x) l = true <-> In x l.
Proof.
  rewrite existsb_exists. split.
  - intros (y & Hin & E). apply entry_eqb_eq in E. subst. exact Hin.
  - intros H. exists x. split; [exact H|apply entry_eqb_eq; reflexivity].
Qed.

Lemma remove1_some x l : forall l', remove1 x l = Some l' -> Permutation l (x :: l').
Proof.
  induction l as [|y l IH]; cbn [remove1]; intros l' H; [discriminate|].
  destruct (entry_eqb x y) eqn:E.
  - apply entry_eqb_eq in E. injection H as <-. subst. apply Permutation_refl.
  - destruct (remove1 x l) as [r|]; [|discriminate]. injection H as <-.
    eapply perm_trans; [apply perm_skip; apply IH; reflexivity|apply perm_swap].
Qed.

Lemma remove1_none x l : remove1 x l = None -> ~ In x l.
Proof.
  induction l as [|y l IH]; cbn [remove1]; intros H; [tauto|].
  destruct (entry_eqb x y) eqn:E; [discriminate|].
  destruct (remove1 x l) as [r|]; [discriminate|].
  intros [->|Hin]; [|exact (IH eq_refl Hin)].
  assert (entry_eqb x x = true) by (apply entry_eqb_eq; reflexivity). congruence.
Qed.

(* Taking [x] out of both sides: the one step the two multiset judges share. *)
Lemma remove1_step x m l2 :
  match remove1 x l2 with
  | Some l2' => Permutation (x :: m) l2 <-> Permutation m l2'
  | None => ~ Permutation (x :: m) l2
  end.
Proof.
  destruct (remove1 x l2) as [l2'|] eqn:E.
  - apply remove1_some in E. split; intros H.
    + eapply Permutation_cons_inv, perm_trans; [exact H | exact E].
    + eapply perm_trans; [apply perm_skip, H | apply Permutation_sym, E].
  - intros H. apply (remove1_none _ _ E). eapply Permutation_in; [exact H | left; reflexivity].
Qed.

Lemma perm_b_spec l1 : forall l2, perm_b l1 l2 = true <-> Permutation l1 l2.
Proof.
  induction l1 as [|x l1 IH]; intros l2; cbn [perm_b].
  - destruct l2; split; intros H; try reflexivity; try discriminate.
    apply Permutation_nil in H. discriminate.
  - pose proof (remove1_step x l1 l2) as R. destruct (remove1 x l2) as [l2'|].
    + rewrite IH. symmetry. exact R.
    + split; [discriminate | contradiction].
Qed.

Lemma pf_go_spec l : forall seen, pf_go seen l = true <->
  (forall a b p n k, l = a ++ (p ++ [n], k) :: b -> p <> [] -> In (p, KDir) (seen ++ a)).
Proof.
  induction l as [|e l IH]; intros seen; cbn [pf_go].
  - split; [|reflexivity]. intros _ a b p n k E. destruct a; discriminate.
  - rewrite andb_true_iff, IH. split.
    + intros [Hh Ht] a b p n k E Hp. destruct a as [|e' a]; cbn [app] in E; injection E as -> E.
      * cbn [fst] in Hh. rewrite removelast_last in Hh. rewrite app_nil_r.
        destruct p as [|x p]; [contradiction|]. apply existsb_entry in Hh. exact Hh.
      * specialize (Ht a b p n k E Hp). cbn [app] in Ht. apply in_or_app.
        destruct Ht as [<-|Ht]; [right; left; reflexivity|].
        apply in_app_or in Ht as [Ht|Ht]; [left; exact Ht|right; right; exact Ht].
    + intros H. split.
      * destruct e as [q k]. cbn [fst]. destruct (removelast q) as [|x p'] eqn:Eq; [reflexivity|].
        assert (Hq : q <> []) by (intros ->; discriminate).
        pose proof (@app_removelast_last name q [] Hq) as Eq'. rewrite Eq in Eq'.
        specialize (H [] l (x :: p') (last q []) k). rewrite <- Eq' in H. cbn [app] in H.
        specialize (H eq_refl). rewrite app_nil_r in H. apply existsb_entry. apply H. discriminate.
      * intros a b p n k E Hp. specialize (H (e :: a) b p n k). cbn [app] in H. rewrite E in H.
        specialize (H eq_refl Hp). apply in_app_or in H. cbn [app]. destruct H as [H|[H|H]].
        -- right. apply in_or_app. left. exact H.
        -- left. exact H.
        -- right. apply in_or_app. right. exact H.
Qed.

Lemma parent_first_b_spec l : parent_first_b l = true <-> parent_first l.
Proof. unfold parent_first_b, parent_first. rewrite pf_go_spec. cbn [app]. reflexivity. Qed.

(* The judge accepts a complete listing iff it is what the theorems promise. *)
Lemma admits_complete_spec t l : admits t true l = true <->
  has_error t = false /\ Permutation l (walk_spec [] t) /\ parent_first l.
Proof.
  unfold admits. rewrite !andb_true_iff, negb_true_iff, perm_b_spec, parent_first_b_spec. tauto.
Qed.

(* Every complete listing the model can produce is accepted by the judge. *)
Lemma model_listing_admitted N C : N >= 1 -> forall root s,
  reach N C root s -> cons s = CEos -> admits root true (recvd s) = true.
Proof.
  intros HN root s Hr Hc. apply admits_complete_spec.
  destruct (eos_exactly_once N C HN _ _ Hr Hc) as [He Hp].
  repeat split; auto. eapply reach_parents_first; eauto.
Qed.

(* No descent, read with unique sibling names: whatever lies at an ancestor path of a job or of a result is a real
   directory that the filters keep (so it is neither excluded nor a link).  [down] is [dir_at] read from the root. *)
Inductive down : tree -> path -> tree -> Prop :=
| down_nil t : down t [] t
| down_cons ch n sub p t : In (n, (false, sub)) ch -> is_dir sub = true -> down sub p t -> down (Dir true ch) (n :: p) t.

Lemma down_snoc root p ch n sub : down root p (Dir true ch) -> In (n, (false, sub)) ch -> is_dir sub = true ->
  down root (p ++ [n]) sub.
Proof.
  intros Hd Hin Hs. remember (Dir true ch) as t eqn:Et. induction Hd as [t|ch0 m sub0 p t Hin0 Hs0 Hd IH]; subst.
  - cbn [app]. eapply down_cons; eauto. apply down_nil.
  - cbn [app]. eapply down_cons; eauto.
Qed.

Lemma dir_at_down root p t : dir_at root p t -> down root p t.
Proof. induction 1; [apply down_nil|eapply down_snoc; eauto]. Qed.

Lemma nodup_fst_unique {A B} (l : list (A * B)) n a b :
  NoDup (map fst l) -> In (n, a) l -> In (n, b) l -> a = b.
Proof.
  induction l as [|[m c] l IH]; cbn [map fst In]; intros Hnd Ha Hb; [tauto|].
  inversion Hnd as [|? ? Hnot Hnd']; subst.
  destruct Ha as [Ha|Ha], Hb as [Hb|Hb].
  - congruence.
  - injection Ha as -> ->. exfalso. apply Hnot. apply in_map_iff. exists (n, b). auto.
  - injection Hb as -> ->. exfalso. apply Hnot. apply in_map_iff. exists (n, a). auto.
  - eapply IH; eauto.
Qed.

Lemma down_ancestor_unique root p t : down root p t -> unique_names root ->
  forall q r c, p = q ++ r -> q <> [] -> at_path root q c ->
  fst c = false /\ is_dir (snd c) = true /\ down root q (snd c) /\ down (snd c) r t.
Proof.
  induction 1 as [t|ch n sub p t Hin Hs Hd IH]; intros Hun q r c E Hq Hat.
  - destruct q; [contradiction|discriminate].
  - destruct q as [|m q]; [contradiction|]. cbn [app] in E. injection E as <- E.
    inversion Hun as [|r0 ch0 Hnd Hall]; subst.
    inversion Hat as [r1 ch1 n1 c1 Hin1|r1 ch1 n1 c1 p1 c1' Hin1 Hp1 Hat1]; subst.
    + pose proof (nodup_fst_unique _ _ _ _ Hnd Hin Hin1) as <-. cbn [fst snd app] in *.
      repeat split; auto. eapply down_cons; eauto. apply down_nil.
    + pose proof (nodup_fst_unique _ _ _ _ Hnd Hin Hin1) as <-. cbn [snd] in Hat1.
      rewrite Forall_forall in Hall. specialize (Hall _ Hin). cbn [snd] in Hall.
      destruct (IH Hall q r c eq_refl Hp1 Hat1) as (F & D & Dq & Dr).
      repeat split; auto. eapply down_cons; eauto.
Qed.

(* For a job or a result at path p: the thing at every non-empty prefix q of p is a kept real directory. *)
Lemma no_descent_unique root p t : unique_names root -> dir_at root p t ->
  forall q r c, p = q ++ r -> q <> [] -> at_path root q c -> fst c = false /\ is_dir (snd c) = true.
Proof.
  intros Hun Hd q r c E Hq Hat.
  destruct (down_ancestor_unique _ _ _ (dir_at_down _ _ _ Hd) Hun q r c E Hq Hat) as (F & D & _). auto.
Qed.

Lemma sub_b_spec l1 : forall l2, sub_b l1 l2 = true <-> exists rest, Permutation (l1 ++ rest) l2.
Proof.
  induction l1 as [|x l1 IH]; intros l2; cbn [sub_b].
  - split; [intros _; exists l2; apply Permutation_refl|reflexivity].
  - destruct (remove1 x l2) as [l2'|] eqn:E.
    + rewrite IH. split; intros (rest & H); exists rest;
        pose proof (remove1_step x (l1 ++ rest) l2) as R; rewrite E in R; apply R, H.
    + split; [discriminate|]. intros (rest & H). pose proof (remove1_step x (l1 ++ rest) l2) as R. rewrite E in R. contradiction.
Qed.

(* Also a listing that ended in an error is accepted by the judge: what the consumer had received is
   a parents-first part of the reference walk, and the tree does have an error. *)
Lemma model_failed_listing_admitted N C : N >= 1 -> forall root s,
  reach N C root s -> cons s = CErr \/ cons s = CDropped -> admits root false (recvd s) = true.
Proof.
  intros HN root s Hr Hc. unfold admits. rewrite !andb_true_iff. repeat split.
  - exact (failed_has_error _ _ _ _ Hr Hc).
  - apply sub_b_spec. destruct (I_R _ _ _ (reach_inv _ _ _ _ Hr)) as (rest & HR).
    exists (ents rest). apply listing_perm, HR.
  - apply parent_first_b_spec. eapply reach_parents_first; eauto.
Qed.
