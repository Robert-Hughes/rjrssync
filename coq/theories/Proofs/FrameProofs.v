(* Lemmas about the frame codec and the sender / receiver automata (Model/Frame.v). *)
From Coq Require Import String.
From RJ Require Import Base.Prelude Model.Frame.
From RJ Require Model.LEInt Proofs.LEIntProofs.
Local Open Scope N_scope.

(* [le_bytes] and [le_value] are the two fixpoints of Model/LEInt.v under other names: its lemmas apply as they are *)
Lemma le_bytes_length k n : length (le_bytes k n) = k.
Proof. exact (LEIntProofs.le_bytes_length k n). Qed.

Lemma le_bytes_le_value b : le_bytes (length b) (le_value b) = b.
Proof. exact (LEIntProofs.le_bytes_of_le_bytes b). Qed.

Lemma le_value_le_bytes n : n < u64_limit -> le_value (le_bytes 8 n) = n.
Proof. exact (LEIntProofs.of_le_bytes_le_bytes 8 n). Qed.

Lemma le_bytes_inj a b : a < u64_limit -> b < u64_limit -> le_bytes 8 a = le_bytes 8 b -> a = b.
Proof.
  intros Ha Hb E. rewrite <- (le_value_le_bytes a Ha), <- (le_value_le_bytes b Hb), E. reflexivity.
Qed.

Lemma nonce_of_inj a b : a < u64_limit -> b < u64_limit -> nonce_of a = nonce_of b -> a = b.
Proof. intros Ha Hb E. apply app_inv_tail in E. now apply le_bytes_inj. Qed.

Lemma nonces_distinct d i d' i' :
  i < idx_limit -> i' < idx_limit -> nonce d i = nonce d' i' -> d = d' /\ i = i'.
Proof.
  intros Hi Hi' E. unfold nonce in E. unfold idx_limit in *.
  apply nonce_of_inj in E; unfold u64_limit; destruct d, d'; cbn [lsb] in *; try lia; split; try reflexivity; lia.
Qed.

Lemma ctr_0 c : c + 2 * N.of_nat 0 = c.
Proof. lia. Qed.

Lemma ctr_S c k : c + 2 * N.of_nat (S k) = c + 2 + 2 * N.of_nat k.
Proof. lia. Qed.

Lemma lsb_small x : lsb x < u64_limit.
Proof. destruct x; reflexivity. Qed.

Lemma lsb_parity x : lsb x mod 2 = lsb x.
Proof. destruct x; reflexivity. Qed.

Lemma parity_add ctr l k : ctr mod 2 = l -> (ctr + 2 * k) mod 2 = l.
Proof. intros <-. lia. Qed.

Lemma starts_with_app p w : starts_with p w = true -> w = p ++ skipn (length p) w.
Proof.
  revert w; induction p as [|a p IH]; intros w H; [reflexivity|].
  destruct w as [|b w]; cbn [starts_with] in H; [discriminate|].
  apply andb_true_iff in H as [H1 H2]. apply Ascii.eqb_eq in H1. subst b.
  cbn [length skipn app]. f_equal. now apply IH.
Qed.

Lemma starts_with_self_app p w : starts_with p (p ++ w) = true.
Proof.
  induction p as [|a p IH]; cbn [starts_with app]; [reflexivity|].
  rewrite Ascii.eqb_refl, IH. reflexivity.
Qed.

Lemma skipn_self_app {A} (p w : list A) : skipn (length p) (p ++ w) = w.
Proof. induction p as [|a p IH]; cbn [length skipn app]; [reflexivity | assumption]. Qed.

Lemma firstn_self_app {A} (p w : list A) : firstn (length p) (p ++ w) = p.
Proof. induction p as [|a p IH]; cbn [length firstn app]; [reflexivity | now rewrite IH]. Qed.

Lemma firstn8_app (h w : bytes) : length h = 8%nat -> firstn 8 (h ++ w) = h.
Proof. intros <-. apply firstn_self_app. Qed.

Lemma app_eq_length_inv {A} (a1 a2 b1 b2 : list A) :
  length a1 = length a2 -> a1 ++ b1 = a2 ++ b2 -> a1 = a2 /\ b1 = b2.
Proof.
  revert a2; induction a1 as [|x a1 IH]; intros [|y a2] Hl E; try discriminate; [auto|].
  cbn [app] in E. inversion E; subst. cbn [length] in Hl. destruct (IH a2 ltac:(lia) H1) as [P Q]. subst. auto.
Qed.

Lemma opt_cons_app {A} (o : option A) (l1 l2 : list A) : opt_cons o l1 ++ l2 = opt_cons o (l1 ++ l2).
Proof. destruct o; reflexivity. Qed.

Lemma frame_app c w : frame_of c ++ w = le_bytes 8 (blen c) ++ c ++ w.
Proof. unfold frame_of. symmetry. apply app_assoc. Qed.

Lemma frame_length c w : length (frame_of c ++ w) = (8 + length c + length w)%nat.
Proof. rewrite frame_app, !app_length, le_bytes_length. lia. Qed.

Lemma frame_firstn8 c w : firstn 8 (frame_of c ++ w) = le_bytes 8 (blen c).
Proof. rewrite frame_app. apply firstn8_app, le_bytes_length. Qed.

Lemma frame_skipn8 c w : skipn 8 (frame_of c ++ w) = c ++ w.
Proof. rewrite frame_app. exact (skipn_self_app (le_bytes 8 (blen c)) (c ++ w)). Qed.

Lemma header_value c : blen c <= buf_size -> le_value (le_bytes 8 (blen c)) = blen c.
Proof. intros H. apply le_value_le_bytes. unfold buf_size, u64_limit in *. lia. Qed.

Lemma frame_of_prefix_inj c1 c2 r1 r2 :
  blen c1 <= buf_size -> blen c2 <= buf_size -> frame_of c1 ++ r1 = frame_of c2 ++ r2 -> c1 = c2 /\ r1 = r2.
Proof.
  intros H1 H2 E. rewrite !frame_app in E.
  apply app_eq_length_inv in E as [Eh Et]; [|rewrite !le_bytes_length; reflexivity].
  apply le_bytes_inj in Eh; [| unfold buf_size, u64_limit in *; lia ..].
  apply app_eq_length_inv in Et; [assumption|]. unfold blen in Eh. lia.
Qed.

(* a wire that begins with a complete, acceptable-length frame is that frame followed by the rest *)
Lemma wire_is_frame w :
  (8 <= length w)%nat ->
  le_value (firstn 8 w) <= N.of_nat (length (skipn 8 w)) ->
  w = frame_of (firstn (N.to_nat (le_value (firstn 8 w))) (skipn 8 w)) ++ skipn (N.to_nat (le_value (firstn 8 w))) (skipn 8 w).
Proof.
  intros H8 Hl. set (len := le_value (firstn 8 w)) in *. set (rest := skipn 8 w) in *.
  unfold frame_of, blen. rewrite firstn_length, Nat.min_l by lia. rewrite N2Nat.id.
  assert (Hh : length (firstn 8 w) = 8%nat) by (rewrite firstn_length; lia).
  unfold len. rewrite <- Hh at 1. rewrite le_bytes_le_value. rewrite <- app_assoc, firstn_skipn.
  unfold rest. symmetry. apply firstn_skipn.
Qed.

Lemma decidable_head_frame c rest : blen c <= buf_size -> decidable_head (frame_of c ++ rest) = true.
Proof.
  intros Hb. unfold decidable_head. rewrite frame_firstn8, (header_value c Hb), frame_length.
  apply andb_true_iff. split; [apply Nat.leb_le; lia|].
  apply orb_true_iff. right. apply N.leb_le. unfold blen. lia.
Qed.

Lemma decidable_head_oversize h rest : length h = 8%nat -> buf_size < le_value h -> decidable_head (h ++ rest) = true.
Proof.
  intros Hh Hov. unfold decidable_head. rewrite (firstn8_app h rest Hh), app_length, Hh.
  apply N.ltb_lt in Hov. rewrite Hov. reflexivity.
Qed.

Lemma lead_after_prefix fs : forall j x,
  (j <= length fs)%nat ->
  (forall f, nth_error fs j = Some f -> starts_with f x = false) ->
  lead fs (concat (firstn j fs) ++ x) = j /\ after_lead fs (concat (firstn j fs) ++ x) = x.
Proof.
  induction fs as [|f r IH]; intros j x Hj Hx.
  - cbn [length] in Hj. assert (j = 0)%nat by lia. subst j. split; reflexivity.
  - destruct j as [|j].
    + cbn [firstn concat app lead after_lead]. rewrite (Hx f eq_refl). split; reflexivity.
    + cbn [firstn concat lead after_lead]. rewrite <- app_assoc, starts_with_self_app, skipn_self_app.
      cbn [length] in Hj. destruct (IH j x ltac:(lia) Hx) as [A B]. rewrite A, B. split; reflexivity.
Qed.

Lemma upto_final_nofin fin l : existsb fin l = false -> upto_final fin l = l.
Proof.
  induction l as [|m r IH]; intros H; [reflexivity|].
  cbn [existsb] in H. apply orb_false_iff in H as [H1 H2]. cbn [upto_final]. rewrite H1, IH by assumption. reflexivity.
Qed.

Section Recv.
  Variable open : bytes -> bytes -> option bytes.
  Variable wf fin : bytes -> bool.
  Variable bump : bool.
  Variable d : dir.

  Notation recv_bytes := (recv_bytes open wf fin bump d).
  Notation recv_byte := (recv_byte open wf fin bump d).
  Notation finish_frame := (finish_frame open wf fin bump d).
  Notation recv_segments := (recv_segments open wf fin bump d).

  Lemma recv_bytes_app st a b :
    recv_bytes st (a ++ b) =
    (fst (recv_bytes (fst (recv_bytes st a)) b), snd (recv_bytes st a) ++ snd (recv_bytes (fst (recv_bytes st a)) b)).
  Proof.
    revert st; induction a as [|x a IH]; intros st.
    - cbn [app recv_bytes fst snd]. now destruct (recv_bytes st b).
    - cbn [app recv_bytes fst snd]. rewrite IH. cbn [fst snd]. rewrite opt_cons_app. reflexivity.
  Qed.

  Lemma recv_segments_concat st segs : recv_segments st segs = recv_bytes st (concat segs).
  Proof.
    revert st; induction segs as [|s r IH]; intros st; [reflexivity|].
    cbn [recv_segments concat]. rewrite recv_bytes_app, IH. reflexivity.
  Qed.

  (* a stopped receiver stays stopped and delivers nothing *)
  Lemma recv_bytes_stopped st w :
    (match r_st st with RRun _ => False | _ => True end) -> recv_bytes st w = (st, []).
  Proof.
    intros H. induction w as [|b w IH]; [reflexivity|].
    cbn [recv_bytes]. unfold Frame.recv_byte. destruct (r_st st); try contradiction; cbn [fst snd]; rewrite IH; reflexivity.
  Qed.

  Lemma recv_bytes_failed c why w : recv_bytes (mkR c (RFailed why)) w = (mkR c (RFailed why), []).
  Proof. apply recv_bytes_stopped. exact I. Qed.

  Lemma recv_bytes_finished c w : recv_bytes (mkR c RFinished) w = (mkR c RFinished, []).
  Proof. apply recv_bytes_stopped. exact I. Qed.

  Lemma recv_len_phase ctr acc h :
    (length acc + length h < 8)%nat ->
    recv_bytes (mkR ctr (RRun (RLen acc))) h = (mkR ctr (RRun (RLen (rev h ++ acc))), []).
  Proof.
    revert acc; induction h as [|b h IH]; intros acc Hl; [reflexivity|].
    cbn [length] in Hl. cbn [recv_bytes]. unfold Frame.recv_byte. cbn [r_st r_ctr].
    assert (E : (length (b :: acc) <? 8)%nat = true) by (apply Nat.ltb_lt; cbn [length]; lia).
    rewrite E. cbn [fst snd opt_cons]. rewrite IH by (cbn [length]; lia).
    cbn [rev]. rewrite <- app_assoc. reflexivity.
  Qed.

  Lemma recv_body_phase ctr remaining acc h :
    N.of_nat (length h) < remaining ->
    recv_bytes (mkR ctr (RRun (RBody remaining acc))) h =
    (mkR ctr (RRun (RBody (remaining - N.of_nat (length h)) (rev h ++ acc))), []).
  Proof.
    revert remaining acc; induction h as [|b h IH]; intros remaining acc Hl.
    - cbn [length rev app recv_bytes]. replace (remaining - N.of_nat 0) with remaining by lia. reflexivity.
    - cbn [length] in Hl. cbn [recv_bytes]. unfold Frame.recv_byte. cbn [r_st r_ctr].
      assert (E : (remaining =? 1) = false) by (apply N.eqb_neq; lia).
      rewrite E. cbn [fst snd opt_cons]. rewrite IH by lia.
      cbn [rev length]. rewrite <- app_assoc. cbn [app].
      replace (remaining - 1 - N.of_nat (length h)) with (remaining - N.of_nat (S (length h))) by lia. reflexivity.
  Qed.

  Lemma recv_body_complete ctr remaining acc h :
    h <> [] -> N.of_nat (length h) = remaining ->
    recv_bytes (mkR ctr (RRun (RBody remaining acc))) h =
    (fst (finish_frame ctr (rev acc ++ h)), opt_cons (snd (finish_frame ctr (rev acc ++ h))) []).
  Proof.
    revert remaining acc; induction h as [|b h IH]; intros remaining acc Hne Hl; [contradiction|].
    cbn [length] in Hl. cbn [recv_bytes]. unfold Frame.recv_byte. cbn [r_st r_ctr].
    destruct h as [|b' h'].
    - cbn [length] in Hl. assert (E : (remaining =? 1) = true) by (apply N.eqb_eq; lia).
      rewrite E. cbn [recv_bytes fst snd rev]. reflexivity.
    - assert (E : (remaining =? 1) = false) by (apply N.eqb_neq; cbn [length] in Hl; lia).
      rewrite E. cbn [fst snd opt_cons]. rewrite IH; [| discriminate | cbn [length] in *; lia].
      cbn [rev]. rewrite <- app_assoc. reflexivity.
  Qed.

  Definition start (ctr : N) : rstate := mkR ctr (RRun (RLen [])).

  Lemma recv_header ctr h :
    length h = 8%nat ->
    recv_bytes (start ctr) h =
    if buf_size <? le_value h then (mkR ctr (RFailed FOversize), [])
    else if le_value h =? 0 then (fst (finish_frame ctr []), opt_cons (snd (finish_frame ctr [])) [])
    else (mkR ctr (RRun (RBody (le_value h) [])), []).
  Proof.
    intros Hl.
    destruct h as [|b0 h]; [discriminate Hl|]. destruct h as [|b1 h]; [discriminate Hl|].
    destruct h as [|b2 h]; [discriminate Hl|]. destruct h as [|b3 h]; [discriminate Hl|].
    destruct h as [|b4 h]; [discriminate Hl|]. destruct h as [|b5 h]; [discriminate Hl|].
    destruct h as [|b6 h]; [discriminate Hl|]. destruct h as [|b7 h]; [discriminate Hl|].
    destruct h; [|discriminate Hl].
    change [b0; b1; b2; b3; b4; b5; b6; b7] with ([b0; b1; b2; b3; b4; b5; b6] ++ [b7]).
    unfold start. rewrite recv_bytes_app, recv_len_phase by (cbn [length]; lia).
    cbn [fst snd rev app].
    cbn [recv_bytes]. unfold Frame.recv_byte. cbn [r_st r_ctr length Nat.ltb Nat.leb fst snd opt_cons rev app].
    destruct (buf_size <? _); [reflexivity|].
    destruct (_ =? 0); [|reflexivity].
    destruct (snd (finish_frame ctr [])); reflexivity.
  Qed.

  (* The parse view of the byte automaton: what the receiver does with whatever is on the wire. *)
  Lemma recv_head ctr w :
    recv_bytes (start ctr) w =
    if (length w <? 8)%nat then (mkR ctr (RRun (RLen (rev w))), [])
    else let len := le_value (firstn 8 w) in
         let rest := skipn 8 w in
         if buf_size <? len then (mkR ctr (RFailed FOversize), [])
         else if N.of_nat (length rest) <? len then
                (mkR ctr (RRun (RBody (len - N.of_nat (length rest)) (rev rest))), [])
         else let c := firstn (N.to_nat len) rest in
              let r := finish_frame ctr c in
              let r' := recv_bytes (fst r) (skipn (N.to_nat len) rest) in
              (fst r', opt_cons (snd r) (snd r')).
  Proof.
    destruct (length w <? 8)%nat eqn:E8.
    - apply Nat.ltb_lt in E8. unfold start. rewrite recv_len_phase by (cbn [length]; lia).
      rewrite app_nil_r. reflexivity.
    - apply Nat.ltb_ge in E8. cbv zeta.
      rewrite <- (firstn_skipn 8 w) at 1.
      assert (Hh : length (firstn 8 w) = 8%nat) by (rewrite firstn_length; lia).
      rewrite recv_bytes_app, (recv_header ctr _ Hh).
      set (len := le_value (firstn 8 w)). set (rest := skipn 8 w).
      destruct (buf_size <? len) eqn:Eo.
      + cbn [fst snd]. rewrite recv_bytes_failed. reflexivity.
      + destruct (len =? 0) eqn:E0.
        * apply N.eqb_eq in E0. rewrite E0.
          assert (El : (N.of_nat (length rest) <? 0) = false) by (apply N.ltb_ge; lia).
          rewrite El. change (N.to_nat 0) with 0%nat. cbn [firstn skipn fst snd].
          destruct (snd (finish_frame ctr [])); reflexivity.
        * apply N.eqb_neq in E0. cbn [fst snd app].
          destruct (N.of_nat (length rest) <? len) eqn:El.
          -- apply N.ltb_lt in El. rewrite recv_body_phase by assumption. rewrite app_nil_r. reflexivity.
          -- apply N.ltb_ge in El.
             pose proof (recv_bytes_app (mkR ctr (RRun (RBody len []))) (firstn (N.to_nat len) rest) (skipn (N.to_nat len) rest)) as A.
             rewrite firstn_skipn in A. rewrite A. clear A.
             assert (Hc : length (firstn (N.to_nat len) rest) = N.to_nat len) by (rewrite firstn_length; lia).
             rewrite recv_body_complete; [| intros Hnil; rewrite Hnil in Hc; cbn [length] in Hc; lia | rewrite Hc; lia ].
             cbn [rev app fst snd]. rewrite opt_cons_app. reflexivity.
  Qed.

  Lemma recv_frame ctr c w :
    blen c <= buf_size ->
    recv_bytes (start ctr) (frame_of c ++ w) =
    (fst (recv_bytes (fst (finish_frame ctr c)) w), opt_cons (snd (finish_frame ctr c)) (snd (recv_bytes (fst (finish_frame ctr c)) w))).
  Proof.
    intros Hb. rewrite recv_head.
    assert (E8 : (length (frame_of c ++ w) <? 8)%nat = false) by (apply Nat.ltb_ge; rewrite frame_length; lia).
    rewrite E8. cbv zeta. rewrite frame_firstn8, frame_skipn8, (header_value c Hb).
    assert (Eo : (buf_size <? blen c) = false) by (apply N.ltb_ge; assumption).
    assert (El : (N.of_nat (length (c ++ w)) <? blen c) = false).
    { apply N.ltb_ge. unfold blen. rewrite app_length. lia. }
    rewrite Eo, El. unfold blen. rewrite Nat2N.id, firstn_self_app, skipn_self_app. reflexivity.
  Qed.

  (* what the end of a frame does: only a ciphertext that opens under the expected nonce gets any further *)
  Lemma finish_frame_none ctr c : open (nonce_of ctr) c = None ->
    exists c' why, finish_frame ctr c = (mkR c' (RFailed why), None).
  Proof.
    intros H. unfold Frame.finish_frame. destruct (negb _); [eauto|]. destruct (u64_limit <=? _); [eauto|].
    rewrite H. eauto.
  Qed.

  Lemma finish_frame_some ctr m c : ctr mod 2 = lsb d -> ctr + 2 < u64_limit ->
    open (nonce_of ctr) c = Some m -> wf m = true ->
    finish_frame ctr c = (mkR (next_ctr bump ctr) (if fin m then RFinished else RRun (RLen [])), Some m).
  Proof.
    intros Hp Ho Hopen Hwf. unfold Frame.finish_frame.
    apply N.eqb_eq in Hp. apply N.leb_gt in Ho. rewrite Hp, Ho, Hopen, Hwf. reflexivity.
  Qed.

  (* an acceptable frame is taken, and the receiver goes on with the rest of the wire unless the message was final *)
  Lemma recv_accept ctr m c w :
    ctr mod 2 = lsb d -> ctr + 2 < u64_limit -> blen c <= buf_size ->
    open (nonce_of ctr) c = Some m -> wf m = true ->
    recv_bytes (start ctr) (frame_of c ++ w) =
    if fin m then (mkR (next_ctr bump ctr) RFinished, [m])
    else (fst (recv_bytes (start (next_ctr bump ctr)) w), m :: snd (recv_bytes (start (next_ctr bump ctr)) w)).
  Proof.
    intros Hp Ho Hb Hopen Hwf. rewrite (recv_frame ctr c w Hb), (finish_frame_some ctr m c Hp Ho Hopen Hwf).
    cbn [fst snd opt_cons]. destruct (fin m); [rewrite recv_bytes_finished|]; reflexivity.
  Qed.

  (* no frame that could stand at the head of the wire opens: nothing is delivered, and the receiver fails as
     soon as it can decide *)
  Lemma recv_reject ctr w :
    (forall c rest, blen c <= buf_size -> w = frame_of c ++ rest -> open (nonce_of ctr) c = None) ->
    snd (recv_bytes (start ctr) w) = [] /\
    (if decidable_head w then is_failed (fst (recv_bytes (start ctr) w)) = true
     else is_waiting (fst (recv_bytes (start ctr) w)) = true).
  Proof.
    intros H. rewrite recv_head. unfold decidable_head.
    rewrite Nat.leb_antisym, N.leb_antisym, <- skipn_length.
    destruct (length w <? 8)%nat eqn:E8; [split; reflexivity|]. cbv zeta. cbn [negb andb].
    destruct (buf_size <? le_value (firstn 8 w)) eqn:Eo; [split; reflexivity|]. cbn [orb].
    destruct (N.of_nat (length (skipn 8 w)) <? le_value (firstn 8 w)) eqn:El; [split; reflexivity|]. cbn [negb].
    apply Nat.ltb_ge in E8. apply N.ltb_ge in Eo, El.
    assert (Hb : blen (firstn (N.to_nat (le_value (firstn 8 w))) (skipn 8 w)) <= buf_size).
    { unfold blen. rewrite firstn_length. lia. }
    destruct (finish_frame_none ctr _ (H _ _ Hb (wire_is_frame w E8 El))) as (c' & why & Ef).
    rewrite Ef. cbn [fst snd opt_cons]. rewrite recv_bytes_failed. split; reflexivity.
  Qed.
End Recv.

Section Sender.
  Variable seal : bytes -> bytes -> bytes.

  (* what a run of the repaired sender that ended well implies *)
  Fixpoint sender_ok (ctr : N) (ms : list bytes) : Prop :=
    match ms with
    | [] => True
    | m :: r => ctr + 2 < u64_limit /\ blen (seal (nonce_of ctr) m) <= buf_size /\ sender_ok (ctr + 2) r
    end.

  Definition frames_from (ctr : N) (ms : list bytes) : list bytes := map frame_of (seal_cts seal true ctr ms).

  Lemma send_all_ok_inv d ms : forall ctr ctr' fs,
    send_all seal true d ctr ms = Ok (ctr', fs) ->
    sender_ok ctr ms /\ fs = frames_from ctr ms /\ ctr' = ctr + 2 * N.of_nat (length ms).
  Proof.
    induction ms as [|m r IH]; intros ctr ctr' fs H.
    - cbn [send_all] in H. inversion H; subst. cbn. repeat split; lia.
    - cbn [send_all] in H. unfold send_step in H.
      destruct (buf_size - 8 <? blen m); [discriminate|].
      destruct (negb _); [discriminate|].
      destruct (u64_limit <=? ctr + 2) eqn:Eo; [discriminate|].
      destruct (buf_size - 8 <? blen (seal (nonce_of ctr) m)) eqn:Es; [discriminate|].
      cbn [obind fst snd next_ctr] in H.
      destruct (send_all seal true d (ctr + 2) r) as [[c2 f2]| |] eqn:Er; cbn [obind fst snd] in H; try discriminate.
      inversion H; subst. destruct (IH _ _ _ Er) as (A & B & C).
      apply N.leb_gt in Eo. apply N.ltb_ge in Es.
      cbn [sender_ok frames_from seal_cts map length next_ctr]. unfold buf_size in *.
      split; [split; [lia | split; [lia | assumption]] | split; [now rewrite B | lia]].
  Qed.

  Lemma honest_run_inv d ms frames :
    honest_run seal d ms frames -> sender_ok (lsb d) ms /\ frames = frames_from (lsb d) ms.
  Proof. intros [c H]. apply send_all_ok_inv in H as (A & B & _). split; assumption. Qed.

  Lemma sender_ok_nth ms : forall ctr k m, sender_ok ctr ms -> nth_error ms k = Some m ->
    ctr + 2 * N.of_nat k + 2 < u64_limit /\ blen (seal (nonce_of (ctr + 2 * N.of_nat k)) m) <= buf_size.
  Proof.
    induction ms as [|m0 r IH]; intros ctr [|k] m Hok Hn; try discriminate; destruct Hok as (A & B & C).
    - injection Hn as <-. rewrite ctr_0. split; assumption.
    - rewrite ctr_S. exact (IH _ _ _ C Hn).
  Qed.

  Lemma sender_ok_end ms : forall ctr, sender_ok ctr ms -> ctr < u64_limit -> ctr + 2 * N.of_nat (length ms) < u64_limit.
  Proof.
    induction ms as [|m0 r IH]; intros ctr Hok Hc; [cbn [length]; lia|].
    destruct Hok as (A & B & C). specialize (IH _ C ltac:(lia)). cbn [length]. lia.
  Qed.

  Lemma frames_from_length ms : forall ctr, length (frames_from ctr ms) = length ms.
  Proof.
    unfold frames_from. induction ms as [|m r IH]; intros ctr; cbn [seal_cts map length]; [reflexivity | now rewrite IH].
  Qed.

  Lemma frames_from_nth ms : forall ctr j f, sender_ok ctr ms -> nth_error (frames_from ctr ms) j = Some f ->
    exists c, f = frame_of c /\ blen c <= buf_size.
  Proof.
    induction ms as [|m0 r IH]; intros ctr [|j] f Hok Hn; try discriminate; destruct Hok as (A & B & C).
    - injection Hn as <-. eauto.
    - exact (IH _ _ _ C Hn).
  Qed.

  (* the k-th entry of the log: everything else about the log follows from this *)
  Lemma seal_log_nth ms : forall ctr k,
    nth_error (seal_log seal true ctr ms) k =
    option_map (fun m => (nonce_of (ctr + 2 * N.of_nat k), m, seal (nonce_of (ctr + 2 * N.of_nat k)) m)) (nth_error ms k).
  Proof.
    induction ms as [|m0 r IH]; intros ctr [|k]; cbn [seal_log nth_error option_map next_ctr]; try reflexivity.
    - now rewrite ctr_0.
    - now rewrite IH, ctr_S.
  Qed.

  Lemma seal_log_in ms ctr k m : nth_error ms k = Some m ->
    In (nonce_of (ctr + 2 * N.of_nat k), m, seal (nonce_of (ctr + 2 * N.of_nat k)) m) (seal_log seal true ctr ms).
  Proof. intros H. apply nth_error_In with k. rewrite seal_log_nth, H. reflexivity. Qed.

  Lemma in_seal_log ms ctr n m c : sender_ok ctr ms -> In (n, m, c) (seal_log seal true ctr ms) ->
    exists k, nth_error ms k = Some m /\ n = nonce_of (ctr + 2 * N.of_nat k) /\ c = seal n m /\
              ctr + 2 * N.of_nat k + 2 < u64_limit.
  Proof.
    intros Hok Hin. apply In_nth_error in Hin as [k Hk]. rewrite seal_log_nth in Hk.
    destruct (nth_error ms k) as [m'|] eqn:E; [|discriminate]. injection Hk as <- <- <-.
    exists k. destruct (sender_ok_nth _ _ _ _ Hok E) as [P _]. auto.
  Qed.

  Definition log_nonces (l : list (bytes * bytes * bytes)) : list bytes := map (fun e => fst (fst e)) l.

  Lemma seal_log_nodup ms : forall ctr, sender_ok ctr ms ->
    NoDup (log_nonces (seal_log seal true ctr ms)).
  Proof.
    induction ms as [|m0 r IH]; intros ctr Hok; [constructor|].
    pose proof Hok as (A & B & C). cbn [seal_log log_nonces map fst next_ctr]. constructor.
    - intros Hin. apply in_map_iff in Hin as ([[n m] c] & E & Hin). cbn [fst] in E. subst n.
      apply (in_seal_log _ _ _ _ _ C) in Hin as (k & _ & En & _ & P). apply nonce_of_inj in En; lia.
    - apply IH. assumption.
  Qed.
End Sender.

(* the session under the repaired code (bump = true) *)
Section Session.
  Variable seal : bytes -> bytes -> bytes.
  Variable open : bytes -> bytes -> option bytes.
  Variable wf fin : bytes -> bool.
  Variable d : dir.

  Notation recv_bytes := (recv_bytes open wf fin true d).

  (* the receiver stands at [ctr]; [ms] are the messages the honest sender seals from [ctr] on *)
  Fixpoint sound_from (ctr : N) (ms : list bytes) : Prop :=
    ctr mod 2 = lsb d /\
    match ms with
    | [] => forall c, open (nonce_of ctr) c = None
    | m0 :: r =>
        ctr + 2 < u64_limit /\ wf m0 = true /\ blen (seal (nonce_of ctr) m0) <= buf_size /\
        open (nonce_of ctr) (seal (nonce_of ctr) m0) = Some m0 /\
        (forall c m, open (nonce_of ctr) c = Some m -> c = seal (nonce_of ctr) m0) /\
        sound_from (ctr + 2) r
    end.

  Lemma sound_parity ctr ms : sound_from ctr ms -> ctr mod 2 = lsb d.
  Proof. destruct ms; intros [H _]; exact H. Qed.

  (* The refinement: the receiver delivers exactly the leading honest frames, and then stops. *)
  Lemma recv_spec ms : forall ctr w, sound_from ctr ms ->
    snd (recv_bytes (start ctr) w) = upto_final fin (firstn (lead (frames_from seal ctr ms) w) ms) /\
    (if existsb fin (firstn (lead (frames_from seal ctr ms) w) ms)
     then r_st (fst (recv_bytes (start ctr) w)) = RFinished
     else if decidable_head (after_lead (frames_from seal ctr ms) w)
          then is_failed (fst (recv_bytes (start ctr) w)) = true
          else is_waiting (fst (recv_bytes (start ctr) w)) = true).
  Proof.
    induction ms as [|m0 r IH]; intros ctr w Hs.
    - destruct Hs as [Hp Hno]. cbn [frames_from seal_cts map lead after_lead firstn upto_final existsb].
      apply recv_reject. intros c rest _ _. apply Hno.
    - destruct Hs as (Hp & Ho & Hwf & Hsz & Hopen & Huniq & Hs').
      cbn [frames_from seal_cts map lead after_lead next_ctr].
      set (c0 := seal (nonce_of ctr) m0) in *.
      destruct (starts_with (frame_of c0) w) eqn:Esw.
      + apply starts_with_app in Esw. set (w' := skipn (length (frame_of c0)) w) in *.
        rewrite Esw, (recv_accept open wf fin true d ctr m0 c0 w' Hp Ho Hsz Hopen Hwf).
        cbn [firstn upto_final existsb next_ctr].
        destruct (fin m0); [split; reflexivity|]. cbn [fst snd orb].
        destruct (IH (ctr + 2) w' Hs') as [A B]. unfold frames_from in A, B. rewrite A. split; [reflexivity | exact B].
      + cbn [firstn upto_final existsb].
        apply recv_reject. intros c rest Hb Hw.
        destruct (open (nonce_of ctr) c) as [m|] eqn:Eo; [|reflexivity].
        apply Huniq in Eo. subst c. rewrite Hw, starts_with_self_app in Esw. discriminate.
  Qed.
End Session.

(* the statements of Props/C10.v *)
Section Final.
  Variable seal : bytes -> bytes -> bytes.
  Variable open : bytes -> bytes -> option bytes.
  Variable wf fin : bytes -> bool.
  Variable d : dir.
  Variable sent_d sent_o frames_d frames_o : list bytes.
  Hypothesis Hrun_d : honest_run seal d sent_d frames_d.
  Hypothesis Hrun_o : honest_run seal (other d) sent_o frames_o.
  Hypothesis Haead : ideal_aead open (dir_log seal d sent_d sent_o).
  Hypothesis Hwf : Forall (fun m => wf m = true) sent_d.

  Lemma ok_d : sender_ok seal (lsb d) sent_d.
  Proof. apply (honest_run_inv seal d sent_d frames_d Hrun_d). Qed.
  Lemma ok_o : sender_ok seal (lsb (other d)) sent_o.
  Proof. apply (honest_run_inv seal (other d) sent_o frames_o Hrun_o). Qed.
  Lemma frames_d_eq : frames_d = frames_from seal (lsb d) sent_d.
  Proof. apply (honest_run_inv seal d sent_d frames_d Hrun_d). Qed.

  (* under the counter of this direction's k-th frame only that frame opens: the other direction's counters have
     the other parity, and counters below 2^64 have distinct nonces *)
  Lemma opens_only_logged k c m :
    lsb d + 2 * N.of_nat k < u64_limit -> open (nonce_of (lsb d + 2 * N.of_nat k)) c = Some m ->
    nth_error sent_d k = Some m /\ c = seal (nonce_of (lsb d + 2 * N.of_nat k)) m.
  Proof.
    intros Hc Ho. apply (proj2 Haead), in_app_or in Ho as [Hin|Hin].
    - apply (in_seal_log seal _ _ _ _ _ ok_d) in Hin as (k' & Hk' & En & Es & P).
      apply nonce_of_inj in En; [| lia ..]. assert (k' = k) by lia. subst k'. split; assumption.
    - exfalso. apply (in_seal_log seal _ _ _ _ _ ok_o) in Hin as (k' & _ & En & _ & P).
      apply nonce_of_inj in En; [| lia ..]. destruct d; cbn [lsb other] in En; lia.
  Qed.

  Lemma sound_from_suffix ms : forall pre, sent_d = pre ++ ms ->
    sound_from seal open wf d (lsb d + 2 * N.of_nat (length pre)) ms.
  Proof.
    induction ms as [|m0 r IH]; intros pre E; cbn [sound_from]; (split; [apply parity_add, lsb_parity|]).
    - intros c. destruct (open _ c) as [m|] eqn:Eo; [exfalso | reflexivity].
      rewrite app_nil_r in E. subst pre.
      apply opens_only_logged in Eo as [Hn _]; [|apply (sender_ok_end seal _ _ ok_d), lsb_small].
      rewrite (proj2 (nth_error_None sent_d (length sent_d)) (le_n _)) in Hn. discriminate.
    - assert (Hk : nth_error sent_d (length pre) = Some m0).
      { rewrite E, nth_error_app2, Nat.sub_diag by lia. reflexivity. }
      destruct (sender_ok_nth seal _ _ _ _ ok_d Hk) as [P Q].
      split; [lia|]. split; [exact (proj1 (Forall_forall _ _) Hwf _ (nth_error_In _ _ Hk))|]. split; [exact Q|].
      split; [apply (proj1 Haead), in_or_app; left; apply seal_log_in, Hk|].
      split; [intros c m Ho; apply opens_only_logged in Ho as [Hn Hc]; [congruence | lia]|].
      replace (lsb d + 2 * N.of_nat (length pre) + 2) with (lsb d + 2 * N.of_nat (length (pre ++ [m0])))
        by (rewrite app_length; cbn [length]; lia).
      apply IH. rewrite <- app_assoc. exact E.
  Qed.

  Lemma sound_from_session : sound_from seal open wf d (lsb d) sent_d.
  Proof. rewrite <- (ctr_0 (lsb d)). exact (sound_from_suffix sent_d [] eq_refl). Qed.

  Theorem final_prefix : forall wire,
    snd (recv_bytes open wf fin true d (r_init d) wire) = upto_final fin (firstn (lead frames_d wire) sent_d).
  Proof. intros w. rewrite frames_d_eq. apply (recv_spec seal open wf fin d sent_d (lsb d) w sound_from_session). Qed.

  Theorem final_status : forall wire,
    let st := fst (recv_bytes open wf fin true d (r_init d) wire) in
    if existsb fin (firstn (lead frames_d wire) sent_d) then r_st st = RFinished
    else if decidable_head (after_lead frames_d wire) then is_failed st = true
         else is_waiting st = true.
  Proof. intros w. rewrite frames_d_eq. apply (recv_spec seal open wf fin d sent_d (lsb d) w sound_from_session). Qed.

  (* Every manipulation at once: whatever stands where the j-th honest frame should be, if it is not the
     beginning of that frame and the receiver can decide about it (a complete frame, or a length field it
     refuses), the first j messages are delivered, nothing else, and the receiver has failed. *)
  Lemma final_rejects j x :
    (j <= length sent_d)%nat -> existsb fin (firstn j sent_d) = false -> decidable_head x = true ->
    (forall f, nth_error frames_d j = Some f -> starts_with f x = false) ->
    snd (recv_bytes open wf fin true d (r_init d) (concat (firstn j frames_d) ++ x)) = firstn j sent_d /\
    is_failed (fst (recv_bytes open wf fin true d (r_init d) (concat (firstn j frames_d) ++ x))) = true.
  Proof.
    intros Hj Hnf Hd Hx.
    destruct (lead_after_prefix frames_d j x) as [A B]; [rewrite frames_d_eq, frames_from_length; exact Hj | exact Hx |].
    pose proof (final_prefix (concat (firstn j frames_d) ++ x)) as P.
    pose proof (final_status (concat (firstn j frames_d) ++ x)) as S. cbv zeta in S.
    rewrite A in P, S. rewrite B, Hnf, Hd in S. rewrite upto_final_nofin in P by assumption. split; assumption.
  Qed.

  (* the frames this direction's sender produced are frames of ciphertexts that fit the buffer *)
  Lemma frames_d_nth j f : nth_error frames_d j = Some f -> exists c, f = frame_of c /\ blen c <= buf_size.
  Proof. rewrite frames_d_eq. apply frames_from_nth, ok_d. Qed.

  (* a complete frame that is not the j-th honest one: bit-flipped, re-sealed without the key, an earlier or
     later frame of this direction, a frame of the other direction, garbage ... *)
  Theorem final_deviating : forall j c' rest,
    (j <= length sent_d)%nat -> existsb fin (firstn j sent_d) = false ->
    blen c' <= buf_size -> nth_error frames_d j <> Some (frame_of c') ->
    let wire := concat (firstn j frames_d) ++ frame_of c' ++ rest in
    snd (recv_bytes open wf fin true d (r_init d) wire) = firstn j sent_d /\
    is_failed (fst (recv_bytes open wf fin true d (r_init d) wire)) = true.
  Proof.
    intros j c' rest Hj Hnf Hb Hne. cbv zeta. apply final_rejects; try assumption; [apply decidable_head_frame, Hb|].
    intros f Hf. destruct (starts_with f (frame_of c' ++ rest)) eqn:Esw; [exfalso | reflexivity].
    destruct (frames_d_nth j f Hf) as (c & -> & Hc).
    apply starts_with_app, frame_of_prefix_inj in Esw as [E _]; try assumption.
    apply Hne. rewrite E. exact Hf.
  Qed.

  (* a length field beyond the buffer: the receiving thread panics, whatever follows *)
  Theorem final_oversize : forall j h rest,
    (j <= length sent_d)%nat -> existsb fin (firstn j sent_d) = false ->
    length h = 8%nat -> buf_size < le_value h ->
    let wire := concat (firstn j frames_d) ++ h ++ rest in
    snd (recv_bytes open wf fin true d (r_init d) wire) = firstn j sent_d /\
    is_failed (fst (recv_bytes open wf fin true d (r_init d) wire)) = true.
  Proof.
    intros j h rest Hj Hnf Hh Hov. cbv zeta. apply final_rejects; try assumption; [apply decidable_head_oversize; assumption|].
    intros f Hf. destruct (starts_with f (h ++ rest)) eqn:Esw; [exfalso | reflexivity].
    destruct (frames_d_nth j f Hf) as (c & -> & Hc).
    apply starts_with_app, (f_equal (firstn 8)) in Esw.
    rewrite frame_firstn8, (firstn8_app h rest Hh) in Esw.
    rewrite Esw, (header_value c Hc) in Hov. lia.
  Qed.
End Final.

(* A frame of another session (another link of the same run: sealing function [seal'], i.e. another key), taken
   from any direction and any position of that link and put where the j-th honest frame of this link should be:
   rejected like every other deviating frame.  The premise [ideal_aead open (dir_log seal ...)] is what makes the
   other link "another session": only this link's two senders ever sealed under this link's key. *)
Theorem final_foreign_session seal seal' open wf fin d sent_d sent_o frames_d frames_o d' sent' frames' :
  honest_run seal d sent_d frames_d -> honest_run seal (other d) sent_o frames_o ->
  ideal_aead open (dir_log seal d sent_d sent_o) ->
  Forall (fun m => wf m = true) sent_d ->
  honest_run seal' d' sent' frames' ->
  forall j j' f' rest,
    (j <= length sent_d)%nat -> existsb fin (firstn j sent_d) = false ->
    nth_error frames' j' = Some f' -> nth_error frames_d j <> Some f' ->
    let wire := concat (firstn j frames_d) ++ f' ++ rest in
    snd (recv_bytes open wf fin true d (r_init d) wire) = firstn j sent_d /\
    is_failed (fst (recv_bytes open wf fin true d (r_init d) wire)) = true.
Proof.
  intros Hd Ho Ha Hwf Hs' j j' f' rest Hj Hnf Hn Hne.
  apply honest_run_inv in Hs' as [A' B']. rewrite B' in Hn.
  apply (frames_from_nth seal' _ _ _ _ A') in Hn as (c & -> & Hb).
  exact (final_deviating seal open wf fin d sent_d sent_o frames_d frames_o Hd Ho Ha Hwf j c rest Hj Hnf Hb Hne).
Qed.

(* no (key, nonce) pair is used twice in a session *)
Theorem final_no_reuse seal sent0 sent1 frames0 frames1 :
  honest_run seal BossToDoer sent0 frames0 -> honest_run seal DoerToBoss sent1 frames1 ->
  NoDup (map (fun e => fst (fst e)) (dir_log seal BossToDoer sent0 sent1)).
Proof.
  intros H0 H1. apply honest_run_inv in H0 as [H0 _], H1 as [H1 _].
  unfold dir_log. rewrite map_app. apply NoDup_app_intro.
  - apply (seal_log_nodup seal sent0 _ H0).
  - apply (seal_log_nodup seal sent1 _ H1).
  - intros x Hx0 Hx1.
    apply in_map_iff in Hx0 as ([[n0 m0] c0] & E0 & Hin0). apply in_map_iff in Hx1 as ([[n1 m1] c1] & E1 & Hin1).
    cbn [fst] in E0, E1. subst n0 n1.
    apply (in_seal_log seal _ _ _ _ _ H0) in Hin0 as (k0 & _ & En0 & _ & P0).
    apply (in_seal_log seal _ _ _ _ _ H1) in Hin1 as (k1 & _ & En1 & _ & P1).
    rewrite En0 in En1. apply nonce_of_inj in En1; cbn [lsb other] in *; lia.
Qed.

(* The only things ever sealed under the key are the receiver's own side's messages (the peer does
   not hold the key, it can only reflect them): nothing is delivered. *)
Theorem final_reflection seal open wf fin d own frames :
  honest_run seal (other d) own frames ->
  (forall n m c, open n c = Some m -> In (n, m, c) (seal_log seal true (lsb (other d)) own)) ->
  forall wire, snd (recv_bytes open wf fin true d (r_init d) wire) = [].
Proof.
  intros Hrun H2 w. apply honest_run_inv in Hrun as [Hok _].
  apply (recv_reject open wf fin true d (lsb d) w). intros c rest _ _.
  destruct (open (nonce_of (lsb d)) c) as [m|] eqn:Eo; [exfalso | reflexivity].
  apply H2, (in_seal_log seal _ _ _ _ _ Hok) in Eo as (k & _ & En & _ & P).
  apply nonce_of_inj in En; unfold u64_limit in *; destruct d; cbn [lsb other] in *; lia.
Qed.

(* [ideal_aead open []]: nothing was ever sealed under the receiver's key - the peer does not hold it *)
Theorem final_no_key open wf fin bump d :
  ideal_aead open [] -> forall wire, snd (recv_bytes open wf fin bump d (r_init d) wire) = [].
Proof.
  intros [_ H2] w. apply (recv_reject open wf fin bump d (lsb d) w). intros c rest _ _.
  destruct (open (nonce_of (lsb d)) c) as [m|] eqn:E; [destruct (H2 _ _ _ E) | reflexivity].
Qed.

Theorem final_segmentation open wf fin bump d st segs :
  recv_segments open wf fin bump d st segs = recv_bytes open wf fin bump d st (concat segs).
Proof. apply recv_segments_concat. Qed.

(* the stream without an adversary (C14, TCP half) *)
Section Stream.
  Variable seal : bytes -> bytes -> bytes.
  Variable open : bytes -> bytes -> option bytes.
  Variable wf fin : bytes -> bool.
  Variable d : dir.
  Hypothesis H1t : forall n m, open n (seal n m) = Some m.

  Lemma recv_honest_stream ms : forall ctr,
    ctr mod 2 = lsb d -> sender_ok seal ctr ms -> Forall (fun m => wf m = true) ms ->
    snd (recv_bytes open wf fin true d (start ctr) (concat (frames_from seal ctr ms))) = upto_final fin ms.
  Proof.
    induction ms as [|m0 r IH]; intros ctr Hp Hok Hwf; [reflexivity|].
    destruct Hok as (Ho & Hsz & Hok'). inversion Hwf as [|? ? Hw0 Hwr]; subst.
    cbn [frames_from seal_cts map concat next_ctr upto_final].
    rewrite (recv_accept open wf fin true d ctr m0 _ _ Hp Ho Hsz (H1t _ _) Hw0). cbn [next_ctr].
    destruct (fin m0); [reflexivity|]. cbn [snd]. f_equal.
    apply IH; [apply (parity_add ctr (lsb d) 1), Hp | assumption ..].
  Qed.

  Theorem stream_roundtrip : forall msgs segs ctr' frames,
    send_all seal true d (lsb d) msgs = Ok (ctr', frames) ->
    Forall (fun m => wf m = true) msgs ->
    upto_final fin msgs = msgs ->                 (* nothing is sent after the final message *)
    concat segs = concat frames ->                (* any segmentation of the byte stream *)
    decode_stream open wf fin true d segs = msgs.
  Proof.
    intros msgs segs ctr' frames Hs Hwf Hfin Hseg. apply send_all_ok_inv in Hs as (Hok & -> & _).
    unfold decode_stream. rewrite recv_segments_concat, Hseg. rewrite <- Hfin at 2.
    apply (recv_honest_stream msgs (lsb d) (lsb_parity d) Hok Hwf).
  Qed.
End Stream.

(* the toy AEAD satisfies both halves of [ideal_aead] *)
Lemma toy_H2 log n m c : toy_open log n c = Some m -> In (n, m, c) log.
Proof.
  unfold toy_open. induction log as [|[[n' m'] c'] r IH]; cbn [toy_lookup]; intros H; [discriminate|].
  destruct (str_eqb n n' && str_eqb c c') eqn:E.
  - apply andb_true_iff in E as [E1 E2]. apply str_eqb_eq in E1, E2. inversion H; subst. left. reflexivity.
  - right. apply IH. exact H.
Qed.

Lemma toy_seal_inj k n m m' : toy_seal k n m = toy_seal k n m' -> m = m'.
Proof. unfold toy_seal. intros H. apply app_inv_head in H. apply app_inv_head in H. exact H. Qed.

Lemma toy_H1_gen k log n m c :
  (forall e, In e log -> snd e = toy_seal k (fst (fst e)) (snd (fst e))) ->
  In (n, m, c) log -> toy_open log n c = Some m.
Proof.
  unfold toy_open. induction log as [|[[n' m'] c'] r IH]; intros Hform Hin; [contradiction|].
  cbn [toy_lookup].
  destruct (str_eqb n n' && str_eqb c c') eqn:E.
  - apply andb_true_iff in E as [E1 E2]. apply str_eqb_eq in E1, E2. subst n' c'.
    pose proof (Hform (n, m', c) (or_introl eq_refl)) as F1. cbn [fst snd] in F1.
    pose proof (Hform (n, m, c) Hin) as F2. cbn [fst snd] in F2.
    rewrite F1 in F2. apply toy_seal_inj in F2. now subst.
  - destruct Hin as [Hin|Hin].
    + inversion Hin; subst. rewrite !str_eqb_refl in E. discriminate.
    + apply IH; [|exact Hin]. intros e He. apply Hform. now right.
Qed.

Lemma seal_log_form seal bump ms : forall ctr e, In e (seal_log seal bump ctr ms) -> snd e = seal (fst (fst e)) (snd (fst e)).
Proof.
  induction ms as [|m r IH]; intros ctr e H; [contradiction|].
  destruct H as [H|H]; [subst e; reflexivity | eapply IH; exact H].
Qed.

Lemma toy_H1 bump k c0 s0 c1 s1 n m c :
  In (n, m, c) (toy_log bump k c0 s0 c1 s1) -> toy_open (toy_log bump k c0 s0 c1 s1) n c = Some m.
Proof.
  apply (toy_H1_gen k). intros e He. unfold toy_log in He. apply in_app_or in He as [He|He]; eapply seal_log_form; exact He.
Qed.

(* the code as it is on the pinned tree (bump = false) *)
Definition refute_key : bytes := repeat (ascii_of_N 7) 16.
Definition refute_m0 : bytes := le_bytes 4 1 ++ le_bytes 8 2 ++ [ascii_of_N 170; ascii_of_N 187].
Definition refute_m1 : bytes := le_bytes 4 2 ++ le_bytes 8 0.

Lemma refuted_without_bump :
  let k := refute_key in
  let sent := [refute_m0; refute_m1] in
  let log := toy_session_log false k sent [] in
  (forall n m c, In (n, m, c) log -> toy_open log n c = Some m) /\
  (forall n m c, toy_open log n c = Some m -> In (n, m, c) log) /\
  exists f0 f1 ctr',
    toy_send false k BossToDoer (lsb BossToDoer) sent = Ok (ctr', [f0; f1]) /\
    (* the first frame is put on the wire twice: the receiver of the unrepaired code takes it twice *)
    snd (toy_recv false log BossToDoer (r_init BossToDoer) (f0 ++ f0 ++ f1)) = [refute_m0; refute_m0; refute_m1] /\
    lead [f0; f1] (f0 ++ f0 ++ f1) = 1%nat /\
    (* and both frames were sealed under one (key, nonce) *)
    ~ NoDup (log_nonces log).
Proof.
  cbv zeta. split; [intros n m c; apply toy_H1|]. split; [intros n m c; apply toy_H2|].
  eexists. eexists. eexists. split; [vm_compute; reflexivity|].
  split; [vm_compute; reflexivity|]. split; [vm_compute; reflexivity|].
  vm_compute. intros H. inversion H as [|? ? Hn _]. apply Hn. left. reflexivity.
Qed.

(* the same script against the repaired code: only the first copy is taken, then the receiver fails *)
Lemma repaired_rejects_duplicate :
  let k := refute_key in
  let sent := [refute_m0; refute_m1] in
  let log := toy_session_log true k sent [] in
  exists f0 f1 ctr',
    toy_send true k BossToDoer (lsb BossToDoer) sent = Ok (ctr', [f0; f1]) /\
    snd (toy_recv true log BossToDoer (r_init BossToDoer) (f0 ++ f0 ++ f1)) = [refute_m0] /\
    is_failed (fst (toy_recv true log BossToDoer (r_init BossToDoer) (f0 ++ f0 ++ f1))) = true.
Proof.
  cbv zeta. eexists. eexists. eexists. split; [vm_compute; reflexivity|]. split; vm_compute; reflexivity.
Qed.

(* the premises are jointly satisfiable: the toy functionality, two messages one way and one back *)
Definition ex_key : bytes := repeat (ascii_of_N 7) 16.
Definition ex_sent0 : list bytes := [refute_m0; refute_m1].
Definition ex_sent1 : list bytes := [le_bytes 4 9 ++ le_bytes 8 0].

Lemma premises_satisfiable :
  let seal := toy_seal ex_key in
  let open := toy_open (dir_log seal BossToDoer ex_sent0 ex_sent1) in
  exists f0 f1,
    honest_run seal BossToDoer ex_sent0 f0 /\ honest_run seal DoerToBoss ex_sent1 f1 /\
    ideal_aead open (dir_log seal BossToDoer ex_sent0 ex_sent1) /\
    Forall (fun m => toy_wf m = true) ex_sent0 /\
    snd (recv_bytes open toy_wf toy_fin true BossToDoer (r_init BossToDoer) (concat f0)) = ex_sent0.
Proof.
  cbv zeta. eexists. eexists.
  split; [eexists; vm_compute; reflexivity|]. split; [eexists; vm_compute; reflexivity|].
  split.
  { split; intros n m c.
    - apply (toy_H1 true ex_key (lsb BossToDoer) ex_sent0 (lsb DoerToBoss) ex_sent1).
    - apply toy_H2. }
  split; [repeat constructor|]. vm_compute. reflexivity.
Qed.