(* C13 at the level of the whole sync: the complete result of a sync - exit status, destination state, both
   command traces, prompts, statistics - is the same for every interleaving of the two listing streams. *)
From RJ Require Import Base.Prelude Base.OrderedPlan Model.Settings Model.Core Model.Fs Model.Sync
  Spec.PlanSpec Spec.Mirror Proofs.PlanCProofs Proofs.SyncProofs Proofs.MirrorProofs.

Section Timing.
Variable now_z : N -> Z.
Variable incl : path -> bool.
Variable normalize : str -> target.
Variable chunker : str -> list str.
Notation valid_listing := (valid_listing now_z incl normalize).
Notation side_listing := (side_listing now_z normalize).
Notation sync_one := (sync_one now_z normalize chunker).
Notation entry_of := (entry_of now_z normalize).

Theorem sync_independent_of_interleaving cfg S D ans ls ld ft bits1 bits2 :
  valid_listing S ls -> valid_listing (d_fs D) ld ->
  sync_one cfg S D ans bits1 ls ld ft = sync_one cfg S D ans bits2 ls ld ft.
Proof.
  intros HvS HvD. unfold Sync.sync_one. destruct (fget S []) as [sn|] eqn:ErS; [|reflexivity]. cbv zeta.
  pose proof (fun bits => arrivals_spec now_z incl normalize (cf_diff cfg) (beh_eqb (b_same (cf_b cfg)) BSkip) S (d_fs D) sn bits ls ld HvS HvD ErS) as E.
  unfold arrivals in E. rewrite (E bits1), (E bits2). reflexivity.
Qed.
End Timing.
