(* Remote session model: the nonce counters (C10 for the composed session, and the synchronisation invariant the
   completeness theorem of C14 needs). *)
From RJ Require Import Base.Prelude Model.RemoteSession Model.RemoteSessionLog Proofs.RemoteSessionBase.

Local Open Scope N_scope.

(* what one step does to one direction (tx, wire, rx): nothing, a frame written, or a frame taken *)
Definition Eff (tx : endpoint) (w : list frame) (rx : endpoint) (bad : bool)
               (tx' : endpoint) (w' : list frame) (rx' : endpoint) : Prop :=
  (w' = w /\ sn tx' = sn tx /\ rn rx' = rn rx /\ (rcv_ended (rcv_t rx') = false -> rcv_ended (rcv_t rx) = false))
  \/ (exists f, w' = w ++ [f] /\ fnonce f = sn tx /\ sn tx' = sn tx + 2 /\ rn rx' = rn rx /\ rcv_t rx' = rcv_t rx /\
                fgood f = negb bad)
  \/ (exists f, w = f :: w' /\ sn tx' = sn tx /\ rcv_ended (rcv_t rx) = false /\
                ((fgood f = true /\ fnonce f = rn rx /\ rn rx' = rn rx + 2) \/ rcv_ended (rcv_t rx') = true)).

Lemma eff_same tx w rx bad tx' rx' :
  sn tx' = sn tx -> rn rx' = rn rx -> rcv_t rx' = rcv_t rx -> Eff tx w rx bad tx' w rx'.
Proof. intros A B C. left. rewrite C. auto. Qed.

Lemma dir_step_eff c bad tx w rx tx' w' rx' : dir_step c bad tx w rx tx' w' rx' -> Eff tx w rx bad tx' w' rx'.
Proof.
  intros D. destruct D as [o _ | o _ | br tx' w' bad' S | eof rx' w' S | tx' rx' E1 E2 | K].
  - destruct (ep_do_threads tx o) as (_ & _ & A & _). now apply eff_same.
  - destruct (ep_do_threads rx o) as (_ & A & _ & B). now apply eff_same.
  - destruct S; try (apply eff_same; reflexivity). right; left. eexists. projs. repeat split; reflexivity.
  - destruct S as [f t K W G N | f t K W G | K W E | m K C X Z | m K C X Z | m K X]; unfold Eff; rewrite K; projs;
      cbn [rcv_ended].
    + right; right. exists f. auto 7.
    + right; right. exists f. auto 6.
    + left. subst w. repeat split; auto.
    + left. auto.
    + left. auto.
    + left. auto.
  - destruct E1 as (_ & _ & A & _). destruct E2 as (B & _ & C & _). now apply eff_same.
  - right; left. eexists. projs. repeat split; reflexivity.
Qed.

Lemma next_eff c a s s' : next c a s = Some s' ->
  Eff (be s) (b2d s) (de s) (bad_b2d (ev s)) (be s') (b2d s') (de s') /\
  Eff (de s) (d2b s) (be s) (bad_d2b (ev s)) (de s') (d2b s') (be s').
Proof.
  intros H. apply next_dirs in H as [D1 D2]. split; eapply dir_step_eff; eassumption.
Qed.

Lemma chained_app a w f : chained a w -> fnonce f = nend a w -> chained a (w ++ [f]).
Proof.
  revert a. induction w as [|g t IH]; intros a H E; cbn [chained app] in *.
  - unfold nend in E. cbn [length] in E. split; [lia | exact I].
  - destruct H as [H1 H2]. split; [exact H1|]. apply IH; [exact H2|]. unfold nend in *. cbn [length] in E. lia.
Qed.

Lemma nend_app a w f : nend a (w ++ [f]) = nend a w + 2.
Proof. unfold nend. rewrite app_length. cbn [length]. lia. Qed.

Lemma appended_same w : appended w w = [].
Proof. unfold appended. apply skipn_all. Qed.
Lemma appended_app w l : appended w (w ++ l) = l.
Proof. unfold appended. rewrite skipn_app, skipn_all, Nat.sub_diag. reflexivity. Qed.
Lemma appended_pop f w : appended (f :: w) w = [].
Proof. unfold appended. apply skipn_all2. cbn [length]. lia. Qed.

(* one direction: the log is a chain from the first nonce of the direction up to the sender's counter, the wire is
   its tail, and a receiving thread that is still running expects the nonce at which the wire begins *)
Record LDir (lsb : N) (lg : list frame) (tx : endpoint) (w : list frame) (rx : endpoint) : Prop := {
  ld_chain : chained lsb lg;
  ld_end : nend lsb lg = sn tx;
  ld_wire : exists pre, lg = pre ++ w /\ (rcv_ended (rcv_t rx) = false -> rn rx = nend lsb pre) }.

Lemma ldir_eff lsb lg tx w rx bad tx' w' rx' :
  Eff tx w rx bad tx' w' rx' -> LDir lsb lg tx w rx -> LDir lsb (lg ++ appended w w') tx' w' rx'.
Proof.
  intros E [C N1 (pre & P & R)].
  destruct E as [(-> & E1 & E2 & E3)|[(f & -> & F1 & F2 & F3 & F4 & _)|(f & -> & P1 & P2 & P3)]].
  - rewrite appended_same, app_nil_r. constructor; [exact C | congruence|]. exists pre. rewrite E2. auto.
  - rewrite appended_app. constructor.
    + apply chained_app; [exact C | congruence].
    + rewrite nend_app. lia.
    + exists pre. rewrite P, F3, F4. split; [now rewrite app_assoc | exact R].
  - rewrite appended_pop, app_nil_r. constructor; [exact C | congruence|].
    exists (pre ++ [f]). split; [rewrite P; now rewrite <- app_assoc|].
    intros Hr. rewrite nend_app, <- (R P2). destruct P3 as [(_ & _ & G)|G]; [exact G | congruence].
Qed.

Record LInv (l : lst) : Prop := {
  li_b : LDir 0 (lb2d l) (be (base l)) (b2d (base l)) (de (base l));
  li_d : LDir 1 (ld2b l) (de (base l)) (d2b (base l)) (be (base l)) }.

Lemma lreach_linv c x l : lreach c x l -> LInv l.
Proof.
  induction 1 as [|l l' _ [A B] [a Ha]].
  - split; constructor; cbn; auto; exists []; auto.
  - unfold lnext in Ha. destruct (next c a (base l)) as [s'|] eqn:E; inv_some Ha.
    destruct (next_eff _ _ _ _ E) as [E1 E2]. split; cbn [base lb2d ld2b]; eapply ldir_eff; eassumption.
Qed.

(* the logged system is the base system with a log attached *)
Lemma lreach_base c x l : lreach c x l -> reach c x (base l).
Proof.
  induction 1 as [|l l' _ IH [a Ha]]; [constructor|]. unfold lnext in Ha.
  destruct (next c a (base l)) as [s'|] eqn:E; inv_some Ha. cbn [base]. eapply reach_step; [exact IH | exists a; exact E].
Qed.

Lemma reach_has_log c x s : reach c x s -> exists l, lreach c x l /\ base l = s.
Proof.
  induction 1 as [|s s' _ (l & L & <-) [a Ha]]; [exists (linit x); split; [constructor | reflexivity]|].
  eexists. split; [eapply lreach_step; [exact L | exists a; unfold lnext; rewrite Ha; reflexivity] | reflexivity].
Qed.

Lemma chained_nth a w : chained a w -> forall i f, nth_error w i = Some f -> fnonce f = a + 2 * N.of_nat i.
Proof.
  revert a. induction w as [|g t IH]; intros a C i f E; [destruct i; discriminate|].
  cbn [chained] in C. destruct C as [C1 C2]. destruct i as [|i]; cbn [nth_error] in E.
  - injection E as <-. lia.
  - rewrite (IH _ C2 _ _ E). lia.
Qed.

(* the receiving thread's expected counter is the nonce of the next frame on the wire: an honest frame is never
   rejected for its nonce *)
Theorem expected_nonce c x s : reach c x s ->
  (rcv_ended (rcv_t (de s)) = false -> forall f t, b2d s = f :: t -> fnonce f = rn (de s)) /\
  (rcv_ended (rcv_t (be s)) = false -> forall f t, d2b s = f :: t -> fnonce f = rn (be s)).
Proof.
  intros R. destruct (reach_has_log _ _ _ R) as (l & L & <-).
  assert (X : forall a lg tx w rx, LDir a lg tx w rx -> rcv_ended (rcv_t rx) = false ->
            forall f t, w = f :: t -> fnonce f = rn rx).
  { intros a lg tx w rx [C _ (pre & P & Rn)] Hr f t ->. rewrite (Rn Hr). subst lg.
    apply (chained_nth _ _ C (length pre)). rewrite nth_error_app2, Nat.sub_diag; [reflexivity | lia]. }
  destruct (lreach_linv _ _ _ L) as [A B]. split; eapply X; eassumption.
Qed.

Lemma chained_ge a w : chained a w -> Forall (fun f => a <= fnonce f /\ (fnonce f) mod 2 = a mod 2) w.
Proof.
  revert a. induction w as [|g t IH]; intros a C; constructor; cbn [chained] in C; destruct C as [C1 C2].
  - split; [lia | now rewrite C1].
  - specialize (IH _ C2). eapply Forall_impl; [|exact IH]. intros f [F1 F2]. split; [lia|].
    rewrite F2. replace (a + 2) with (a + 1 * 2) by lia. apply N.mod_add. discriminate.
Qed.

Lemma chained_nodup a w : chained a w -> NoDup (map fnonce w).
Proof.
  revert a. induction w as [|g t IH]; intros a C; cbn [map]; constructor; cbn [chained] in C; destruct C as [C1 C2].
  - intros Hin. apply in_map_iff in Hin as (f & E & Hin).
    pose proof (chained_ge _ _ C2) as G. rewrite Forall_forall in G. destruct (G _ Hin). lia.
  - eapply IH; exact C2.
Qed.

(* the two directions cannot collide: the boss writes even nonces, the doer odd ones *)
Theorem nonces_distinct c x l : lreach c x l ->
  NoDup (map fnonce (lb2d l ++ ld2b l)) /\
  (forall i f, nth_error (lb2d l) i = Some f -> fnonce f = 0 + 2 * N.of_nat i) /\
  (forall i f, nth_error (ld2b l) i = Some f -> fnonce f = 1 + 2 * N.of_nat i) /\
  (exists pre, lb2d l = pre ++ b2d (base l)) /\ (exists pre, ld2b l = pre ++ d2b (base l)) /\
  sn (be (base l)) = nend 0 (lb2d l) /\ sn (de (base l)) = nend 1 (ld2b l).
Proof.
  intros R. destruct (lreach_linv _ _ _ R) as [[C1 N1 (p1 & W1 & _)] [C2 N2 (p2 & W2 & _)]].
  split; [|split; [exact (chained_nth _ _ C1) | split; [exact (chained_nth _ _ C2) | repeat split; eauto]]].
  rewrite map_app. apply NoDup_app_intro; [eapply chained_nodup; eauto | eapply chained_nodup; eauto|].
  intros n H1 H2. apply in_map_iff in H1 as (f & <- & H1). apply in_map_iff in H2 as (g & E & H2).
  pose proof (chained_ge _ _ C1) as G1. pose proof (chained_ge _ _ C2) as G2. rewrite Forall_forall in G1, G2.
  destruct (G1 _ H1) as [_ P1]. destruct (G2 _ H2) as [_ P2]. rewrite E in P2. rewrite P1 in P2. discriminate P2.
Qed.
