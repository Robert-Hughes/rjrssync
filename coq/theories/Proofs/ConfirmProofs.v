(* The confirmation pass: consent theorems (C03), and what a confirmation leaves of a plan. *)
From RJ Require Import Proofs.PathsProofs Base.Prelude Base.OrderedPlan Model.Settings Model.Core Spec.PlanSpec.

Definition act_answer (a : answer) : bool :=
  match a with AnsOnce true | AnsAll true => true | _ => false end.
Definition has_act (ans : list answer) : bool := existsb act_answer ans.

Lemma resolve_cases cur ans now cur' ans' shown :
  resolve cur ans = (now, cur', ans', shown) ->
  (cur <> BPrompt /\ now = cur /\ cur' = cur /\ ans' = ans /\ shown = false) \/
  (cur = BPrompt /\ shown = true /\
     ((ans = [] /\ now = BError /\ cur' = cur /\ ans' = []) \/
      (exists r, ans = AnsCancel :: r /\ now = BError /\ cur' = cur /\ ans' = r) \/
      (exists a r, ans = AnsOnce a :: r /\ now = beh_of_act a /\ cur' = cur /\ ans' = r) \/
      (exists a r, ans = AnsAll a :: r /\ now = beh_of_act a /\ cur' = beh_of_act a /\ ans' = r))).
Proof.
  unfold resolve. destruct cur; intros H.
  - right. split; [reflexivity|]. destruct ans as [|[a|a|] r]; inversion H; subst; split; try reflexivity.
    + left. repeat split; reflexivity.
    + right; right; left. eexists; eexists. repeat split; reflexivity.
    + right; right; right. eexists; eexists. repeat split; reflexivity.
    + right; left. eexists. repeat split; reflexivity.
  - left. inversion H; subst. repeat split; discriminate || reflexivity.
  - left. inversion H; subst. repeat split; discriminate || reflexivity.
  - left. inversion H; subst. repeat split; discriminate || reflexivity.
Qed.

Lemma has_act_cons a r : has_act r = true -> has_act (a :: r) = true.
Proof. unfold has_act; simpl. intros ->. apply orb_true_r. Qed.

(* what a resolution to "act" implies about the setting and the answers *)
Lemma resolve_act cur ans cur' ans' shown :
  resolve cur ans = (BAct, cur', ans', shown) ->
  cur = BAct \/ (cur = BPrompt /\ has_act ans = true).
Proof.
  intros H. destruct (resolve_cases _ _ _ _ _ _ H) as [(Hn & Hnow & _)|(Hc & _ & Hrest)].
  - left. congruence.
  - right. split; [exact Hc|].
    destruct Hrest as [(_ & Hnow & _)|[(r & _ & Hnow & _)|[(a & r & -> & Hnow & _)|(a & r & -> & Hnow & _)]]];
      try discriminate; destruct a; try discriminate; reflexivity.
Qed.

Lemma resolve_suffix_act cur ans now cur' ans' shown :
  resolve cur ans = (now, cur', ans', shown) -> has_act ans' = true -> has_act ans = true.
Proof.
  intros H Ha. destruct (resolve_cases _ _ _ _ _ _ H) as [(_ & _ & _ & -> & _)|(_ & _ & Hrest)]; auto.
  destruct Hrest as [(_ & _ & _ & ->)|[(r & -> & _ & _ & ->)|[(a & r & -> & _ & _ & ->)|(a & r & -> & _ & _ & ->)]]];
    try (cbn in Ha; discriminate); auto using has_act_cons.
Qed.

Lemma resolve_cur' cur ans now cur' ans' shown :
  resolve cur ans = (now, cur', ans', shown) ->
  cur' = cur \/ (cur = BPrompt /\ ((cur' = BAct /\ has_act ans = true) \/ cur' = BSkip)).
Proof.
  intros H. destruct (resolve_cases _ _ _ _ _ _ H) as [(_ & _ & -> & _)|(Hc & _ & Hrest)]; auto.
  destruct Hrest as [(_ & _ & -> & _)|[(r & _ & _ & -> & _)|[(a & r & _ & _ & -> & _)|(a & r & -> & _ & -> & _)]]]; auto.
  right. split; auto. destruct a; [left; split; reflexivity | right; reflexivity].
Qed.

(* consent for what comes after one resolution is consent for what came before it *)
Lemma resolve_consent cur ans now cur' ans' shown :
  resolve cur ans = (now, cur', ans', shown) ->
  cur' = BAct \/ (cur' = BPrompt /\ has_act ans' = true) -> cur = BAct \/ (cur = BPrompt /\ has_act ans = true).
Proof.
  intros H Hc'. destruct (resolve_cur' _ _ _ _ _ _ H) as [->|(Hc & [[_ Hact]| ->])].
  - destruct Hc' as [Hb|[Hb Ha]]; [left; exact Hb|right; split; [exact Hb|eapply resolve_suffix_act; eauto]].
  - right. split; assumption.
  - destruct Hc' as [Hb|[Hb _]]; discriminate.
Qed.

Theorem confirm_deletes_consent l : forall b ans np rm b' ans' np',
  confirm_deletes b ans l np = Some (rm, b', ans', np') ->
  forall p, In p (map fst l) -> ~ In p rm -> b = BAct \/ (b = BPrompt /\ has_act ans = true).
Proof.
  induction l as [|[p0 v0] l IH]; intros b ans np rm b' ans' np' H p Hin Hnr; [contradiction|].
  cbn [confirm_deletes] in H.
  destruct (resolve b ans) as [[[now cur'] ans1] shown] eqn:ER.
  simpl in Hin. destruct now; try discriminate.
  - (* skip *)
    destruct (confirm_deletes cur' ans1 l _) as [[[[rm1 b1] a1] n1]|] eqn:E; [|discriminate].
    inversion H; subst. destruct Hin as [<-|Hin]; [exfalso; apply Hnr; left; reflexivity|].
    apply (resolve_consent _ _ _ _ _ _ ER). apply (IH _ _ _ _ _ _ _ E p Hin). intro; apply Hnr; right; assumption.
  - (* act *)
    destruct Hin as [<-|Hin]; [eapply resolve_act; eauto|].
    apply (resolve_consent _ _ _ _ _ _ ER). exact (IH _ _ _ _ _ _ _ H p Hin Hnr).
Qed.

Theorem confirm_deletes_rm_subset l : forall b ans np rm b' ans' np',
  confirm_deletes b ans l np = Some (rm, b', ans', np') -> incl rm (map fst l).
Proof.
  induction l as [|[p0 v0] l IH]; intros b ans np rm b' ans' np' H; cbn [confirm_deletes] in H.
  - inversion H; subst. intros x [].
  - destruct (resolve b ans) as [[[now cur'] ans1] shown] eqn:ER. destruct now; try discriminate.
    + destruct (confirm_deletes cur' ans1 l _) as [[[[rm1 b1] a1] n1]|] eqn:E; [|discriminate].
      inversion H; subst. intros x [<-|Hx]; [left; reflexivity|right; eapply IH; eauto].
    + intros x Hx. right. eapply IH; eauto.
Qed.

Lemma confirm_deletes_suffix l : forall b ans np rm b' ans' np',
  confirm_deletes b ans l np = Some (rm, b', ans', np') -> has_act ans' = true -> has_act ans = true.
Proof.
  induction l as [|[p0 v0] l IH]; intros b ans np rm b' ans' np' H Ha; cbn [confirm_deletes] in H.
  - inversion H; subst. exact Ha.
  - destruct (resolve b ans) as [[[now cur'] ans1] shown] eqn:ER. destruct now; try discriminate.
    + destruct (confirm_deletes cur' ans1 l _) as [[[[rm1 b1] a1] n1]|] eqn:E; [|discriminate].
      inversion H; subst. apply (resolve_suffix_act _ _ _ _ _ _ ER). eapply IH; eauto.
    + apply (resolve_suffix_act _ _ _ _ _ _ ER). eapply IH; eauto.
Qed.

(* error setting, or a cancelled / unattended prompt, on a non-empty list: the whole sync fails *)
Theorem confirm_deletes_error ans e l np : confirm_deletes BError ans (e :: l) np = None.
Proof. destruct e as [p v]. reflexivity. Qed.
Theorem confirm_deletes_unattended e l np : confirm_deletes BPrompt [] (e :: l) np = None.
Proof. destruct e as [p v]. reflexivity. Qed.
Theorem confirm_deletes_cancel ans e l np : confirm_deletes BPrompt (AnsCancel :: ans) (e :: l) np = None.
Proof. destruct e as [p v]. reflexivity. Qed.
Theorem confirm_deletes_skip_all l : forall ans np, confirm_deletes BSkip ans l np = Some (map fst l, BSkip, ans, np).
Proof. induction l as [|[p v] l IH]; intros; cbn [confirm_deletes resolve]; [reflexivity|]. rewrite IH. reflexivity. Qed.
Theorem confirm_deletes_act_all l : forall ans np, confirm_deletes BAct ans l np = Some ([], BAct, ans, np).
Proof. induction l as [|[p v] l IH]; intros; cbn [confirm_deletes resolve]; [reflexivity|]. apply IH. Qed.

Lemma get_set_same b r v : r <> NotOnDest -> get_beh (set_beh b r v) r = v.
Proof. destruct r; intros H; try reflexivity. contradiction. Qed.
(* an "all occurrences" answer for one category never leaks into another *)
Lemma get_set_other b r r' v : r <> r' -> get_beh (set_beh b r v) r' = get_beh b r'.
Proof. destruct r, r'; intros H; try reflexivity; contradiction. Qed.
Lemma set_beh_entry b r v : b_entry (set_beh b r v) = b_entry b.
Proof. destruct r; reflexivity. Qed.

Definition creason_eq_dec (a b : creason) : {a = b} + {a <> b}.
Proof. decide equality. Defined.

(* an entry that is already on the destination goes through one resolution of its category's setting *)
Lemma confirm_copies_cons b ans p e r l np : r <> NotOnDest ->
  confirm_copies b ans ((p, (e, r)) :: l) np =
  let '(now, cur', ans', shown) := resolve (get_beh b r) ans in
  let b' := set_beh b r cur' in
  let np' := if shown then np ++ [PCopy p r] else np in
  match now with
  | BError | BPrompt => None
  | BSkip => match confirm_copies b' ans' l np' with
             | Some (rm, b2, a2, n2) => Some (p :: rm, b2, a2, n2) | None => None end
  | BAct => confirm_copies b' ans' l np'
  end.
Proof. intros H. destruct r; [contradiction|reflexivity..]. Qed.

Theorem confirm_copies_consent l : forall b ans np rm b' ans' np',
  confirm_copies b ans l np = Some (rm, b', ans', np') ->
  forall p e r, In (p, (e, r)) l -> ~ In p rm -> r <> NotOnDest ->
  get_beh b r = BAct \/ (get_beh b r = BPrompt /\ has_act ans = true).
Proof.
  induction l as [|[p0 [e0 r0]] l IH]; intros b ans np rm b' ans' np' H p e r Hin Hnr Hr; [contradiction|].
  destruct (creason_eq_dec r0 NotOnDest) as [->|Hr0].
  - cbn [confirm_copies] in H. destruct Hin as [Heq|Hin]; [inversion Heq; subst; contradiction|]. eapply IH; eauto.
  - rewrite confirm_copies_cons in H by exact Hr0.
    destruct (resolve (get_beh b r0) ans) as [[[now cur'] ans1] shown] eqn:ER.
    cbv beta iota zeta in H.
    assert (Hrest : forall rm1 b1 a1 n1, confirm_copies (set_beh b r0 cur') ans1 l (if shown then np ++ [PCopy p0 r0] else np) = Some (rm1, b1, a1, n1) ->
                     In (p, (e, r)) l -> ~ In p rm1 ->
                     get_beh b r = BAct \/ (get_beh b r = BPrompt /\ has_act ans = true)).
    { intros rm1 b1 a1 n1 E Hin1 Hnr1.
      pose proof (IH _ _ _ _ _ _ _ E p e r Hin1 Hnr1 Hr) as Hb.
      destruct (creason_eq_dec r0 r) as [<-|Hne].
      - rewrite get_set_same in Hb by exact Hr0. exact (resolve_consent _ _ _ _ _ _ ER Hb).
      - rewrite get_set_other in Hb by exact Hne.
        destruct Hb as [Hb|[Hb Ha]]; [left; exact Hb|right; split; [exact Hb|eapply resolve_suffix_act; eauto]]. }
    destruct now; try discriminate.
    + destruct (confirm_copies (set_beh b r0 cur') ans1 l _) as [[[[rm1 b1] a1] n1]|] eqn:E; [|discriminate].
      inversion H; subst. destruct Hin as [Heq|Hin]; [inversion Heq; subst; exfalso; apply Hnr; left; reflexivity|].
      eapply Hrest; eauto. intro; apply Hnr; right; assumption.
    + destruct Hin as [Heq|Hin].
      * inversion Heq; subst. eapply resolve_act; eauto.
      * eapply Hrest; eauto.
Qed.

(* entries that need no confirmation are never removed *)
Theorem confirm_copies_keeps_new l : forall b ans np rm b' ans' np',
  confirm_copies b ans l np = Some (rm, b', ans', np') ->
  forall p, In p rm -> exists e r, In (p, (e, r)) l /\ r <> NotOnDest.
Proof.
  induction l as [|[p0 [e0 r0]] l IH]; intros b ans np rm b' ans' np' H p Hp.
  - inversion H; subst. contradiction.
  - assert (Hlater : forall b1 a1 n1 rm1 b2 a2 n2, confirm_copies b1 a1 l n1 = Some (rm1, b2, a2, n2) -> In p rm1 ->
                       exists e r, In (p, (e, r)) ((p0, (e0, r0)) :: l) /\ r <> NotOnDest).
    { intros b1 a1 n1 rm1 b2 a2 n2 E Hin. destruct (IH _ _ _ _ _ _ _ E p Hin) as (e & r & Hin' & Hr).
      exists e, r. split; [right|]; assumption. }
    destruct (creason_eq_dec r0 NotOnDest) as [->|Hr0]; [exact (Hlater _ _ _ _ _ _ _ H Hp)|].
    rewrite confirm_copies_cons in H by exact Hr0.
    destruct (resolve (get_beh b r0) ans) as [[[now cur'] ans1] shown]. cbv beta iota zeta in H.
    destruct now; try discriminate.
    + destruct (confirm_copies _ ans1 l _) as [[[[rm1 b1] a1] n1]|] eqn:E; [|discriminate]. inversion H; subst.
      destruct Hp as [<-|Hp]; [exists e0, r0; split; [left; reflexivity|exact Hr0]|exact (Hlater _ _ _ _ _ _ _ E Hp)].
    + exact (Hlater _ _ _ _ _ _ _ H Hp).
Qed.

Lemma remove_paths_in {V} rm (l : list (path * V)) x : In x (remove_paths rm l) <-> In x l /\ ~ In (fst x) rm.
Proof.
  unfold remove_paths. rewrite filter_In. split; intros [H1 H2]; split; auto.
  - intros Hin. apply negb_true_iff in H2. assert (existsb (path_eqb (fst x)) rm = true); [|congruence].
    apply existsb_exists. exists (fst x). split; [exact Hin|]. unfold path_eqb. destruct (path_eq_dec (fst x) (fst x)); [reflexivity|congruence].
  - apply negb_true_iff. destruct (existsb (path_eqb (fst x)) rm) eqn:E; [|reflexivity]. exfalso. apply H2.
    apply existsb_exists in E as (y & Hy & Hxy). unfold path_eqb in Hxy. destruct (path_eq_dec (fst x) y); [subst; exact Hy|discriminate].
Qed.

Lemma remove_paths_nil {V} (l : list (path * V)) : remove_paths [] l = l.
Proof. apply filter_true, Forall_forall. reflexivity. Qed.
Lemma not_blocked_nil {V} (l : list (path * V)) : filter (not_blocked []) l = l.
Proof. apply filter_true, Forall_forall. reflexivity. Qed.

Lemma kept_nil dl : kept_in_the_way [] dl = [].
Proof. unfold kept_in_the_way. induction dl; cbn; auto. Qed.

Lemma keys_filter_in {V} (f : path * V -> bool) (l : list (path * V)) p : In p (map fst (filter f l)) -> In p (map fst l).
Proof. intros H. apply in_map_iff in H as (y & <- & Hy). apply filter_In in Hy as [Hy _]. apply in_map. exact Hy. Qed.

Lemma nodup_keys_filter {V} (f : path * V -> bool) (l : list (path * V)) : NoDup (map fst l) -> NoDup (map fst (filter f l)).
Proof.
  induction l as [|x l IH]; cbn [map filter]; intros H; [constructor|]. inversion H as [|? ? Hn Hnd]; subst.
  destruct (f x); [|apply IH; exact Hnd]. cbn [map]. constructor; [|apply IH; exact Hnd].
  intros Hin. apply Hn. eapply keys_filter_in; exact Hin.
Qed.

Lemma before_filter {V} (f : path * V -> bool) (l : list (path * V)) a b :
  NoDup (map fst l) -> before a b (map fst l) ->
  In a (map fst (filter f l)) -> In b (map fst (filter f l)) -> before a b (map fst (filter f l)).
Proof.
  induction l as [|x l IH]; cbn [map filter]; intros Hnd Hb Ha Hbb; [destruct Ha|].
  inversion Hnd as [|? ? Hn Hnd']; subst.
  inversion Hb as [l0 Hin|x0 l0 Hb']; subst.
  - (* a is the head *)
    destruct (f x) eqn:Ef; cbn [map] in *.
    + apply before_here. destruct Hbb as [Hbb|Hbb]; [exfalso; apply Hn; rewrite Hbb; exact Hin|exact Hbb].
    + exfalso. apply Hn. eapply keys_filter_in; exact Ha.
  - assert (Han : a <> fst x) by (intros ->; apply Hn; clear -Hb'; induction Hb'; cbn; auto).
    assert (Hbn : b <> fst x) by (intros ->; apply Hn; clear -Hb'; induction Hb'; cbn; auto).
    destruct (f x); cbn [map] in *.
    + apply before_skip. apply IH; auto; [destruct Ha as [Ha|Ha]; [congruence|exact Ha]|destruct Hbb as [Hbb|Hbb]; [congruence|exact Hbb]].
    + apply IH; auto.
Qed.

(* a plan that only creates new entries needs no confirmation at all: it cannot fail or prompt *)
Theorem confirm_new_only b ans a :
  a_delete a = [] -> Forall (fun e => snd (snd e) = NotOnDest) (a_copy a) ->
  confirm b ans a = CDone a [] b ans [].
Proof.
  intros Hd Hc. unfold confirm. rewrite Hd. cbn [confirm_deletes kept_in_the_way filter map].
  rewrite not_blocked_nil.
  assert (E : forall l np bb, Forall (fun e => snd (snd e) = NotOnDest) l -> confirm_copies bb ans l np = Some ([], bb, ans, np)).
  { induction l as [|[p [e r]] l IH]; intros np bb HF; [reflexivity|].
    inversion HF; subst. cbn in H1. subst r. cbn [confirm_copies]. apply IH; auto. }
  rewrite E by auto. cbn [app]. rewrite !remove_paths_nil.
  destruct a as [ad ac]; cbn in *. subst ad. destruct b; reflexivity.
Qed.

(* The lists that are executed, [a'], against the planned ones, [a]: sub-lists in the same order; a deletion
   whose destination entry is in the way of a copy that stayed has stayed itself (else the copy would have been
   dropped, boss_sync.rs confirm_actions); and what stayed had the consent of its category. *)
Section Confirmed.
Variables (b : bstate) (ans : list answer) (a a' : actions) (sk : list path) (b' : bstate) (ans' : list answer) (np : list prompt).
Hypothesis Hc : confirm b ans a = CDone a' sk b' ans' np.

Lemma confirm_inv :
  exists rmd be ans1 n1 rmc,
    let copies := filter (not_blocked (kept_in_the_way rmd (a_delete a))) (a_copy a) in
    confirm_deletes (b_entry b) ans (a_delete a) [] = Some (rmd, be, ans1, n1) /\
    confirm_copies (mkB (b_newer b) (b_older b) (b_same b) be) ans1 copies n1 = Some (rmc, b', ans', np) /\
    a' = mkActions (remove_paths rmd (a_delete a)) (remove_paths rmc copies) /\ sk = rmd ++ rmc.
Proof.
  unfold confirm in Hc.
  destruct (confirm_deletes _ _ _ _) as [[[[rmd be] ans1] n1]|] eqn:Ed; [|discriminate].
  destruct (confirm_copies _ _ _ _) as [[[[rmc b2] ans2] n2]|] eqn:Ec; [|discriminate].
  inversion Hc; subst. exists rmd, be, ans1, n1, rmc. cbv zeta. repeat split; assumption.
Qed.

Lemma confirmed_delete_in x : In x (a_delete a') -> In x (a_delete a).
Proof.
  destruct confirm_inv as (rmd & be & ans1 & n1 & rmc & _ & _ & -> & _).
  cbn [a_delete]. intros H. apply remove_paths_in in H. tauto.
Qed.
Lemma confirmed_copy_in x : In x (a_copy a') -> In x (a_copy a).
Proof.
  destruct confirm_inv as (rmd & be & ans1 & n1 & rmc & _ & _ & -> & _).
  cbn [a_copy]. intros H. apply remove_paths_in in H as [H _]. apply filter_In in H. tauto.
Qed.

Lemma confirmed_delete_keys : NoDup (map fst (a_delete a)) ->
  NoDup (map fst (a_delete a')) /\
  forall p q, before p q (map fst (a_delete a)) -> In p (map fst (a_delete a')) -> In q (map fst (a_delete a')) ->
    before p q (map fst (a_delete a')).
Proof.
  destruct confirm_inv as (rmd & be & ans1 & n1 & rmc & _ & _ & -> & _).
  cbn [a_delete]. intros Hnd. split; [apply nodup_keys_filter; exact Hnd|]. intros p q. apply before_filter. exact Hnd.
Qed.
Lemma confirmed_copy_keys : NoDup (map fst (a_copy a)) -> NoDup (map fst (a_copy a')).
Proof.
  destruct confirm_inv as (rmd & be & ans1 & n1 & rmc & _ & _ & -> & _).
  cbn [a_copy]. intros Hnd. apply nodup_keys_filter, nodup_keys_filter. exact Hnd.
Qed.

Lemma confirmed_in_the_way q e x :
  In (q, (e, Incompatible)) (a_delete a) -> In x (a_copy a') -> is_prefix q (fst x) = true ->
  In (q, (e, Incompatible)) (a_delete a').
Proof.
  destruct confirm_inv as (rmd & be & ans1 & n1 & rmc & _ & _ & -> & _).
  cbn [a_delete a_copy]. intros Hd Hx Hqx. apply remove_paths_in. split; [exact Hd|]. cbn [fst]. intros Hrm.
  apply remove_paths_in in Hx as [Hx _]. apply filter_In in Hx as [_ Hnb].
  unfold not_blocked in Hnb. apply negb_true_iff in Hnb.
  assert (Hex : existsb (fun k => is_prefix k (fst x)) (kept_in_the_way rmd (a_delete a)) = true); [|congruence].
  apply existsb_exists. exists q. split; [|exact Hqx].
  unfold kept_in_the_way. change q with (fst (q, (e, Incompatible))). apply in_map.
  apply filter_In. split; [exact Hd|]. cbn [fst snd]. apply andb_true_iff. split; [|reflexivity].
  apply existsb_exists. exists q. split; [exact Hrm|]. unfold path_eqb. destruct (path_eq_dec q q); [reflexivity|congruence].
Qed.

Lemma confirmed_delete_consent x : In x (a_delete a') -> b_entry b = BAct \/ (b_entry b = BPrompt /\ has_act ans = true).
Proof.
  destruct confirm_inv as (rmd & be & ans1 & n1 & rmc & Ed & _ & -> & _).
  cbn [a_delete]. intros H. apply remove_paths_in in H as [H Hn].
  exact (confirm_deletes_consent _ _ _ _ _ _ _ _ Ed (fst x) (in_map fst _ _ H) Hn).
Qed.
Lemma confirmed_copy_consent p e r : In (p, (e, r)) (a_copy a') -> r <> NotOnDest ->
  get_beh b r = BAct \/ (get_beh b r = BPrompt /\ has_act ans = true).
Proof.
  destruct confirm_inv as (rmd & be & ans1 & n1 & rmc & Ed & Ec & -> & _).
  cbn [a_copy]. intros H Hr. apply remove_paths_in in H as [H Hn]. cbn [fst] in Hn.
  destruct (confirm_copies_consent _ _ _ _ _ _ _ _ Ec p e r H Hn Hr) as [Hb|[Hb Ha]];
    [left|right; split; [|exact (confirm_deletes_suffix _ _ _ _ _ _ _ _ Ed Ha)]];
    destruct r; try contradiction; exact Hb.
Qed.

Lemma confirm_no_skip : sk = [] -> a' = a.
Proof.
  destruct confirm_inv as (rmd & be & ans1 & n1 & rmc & _ & _ & -> & ->).
  intros H. apply app_eq_nil in H as [-> ->]. rewrite !remove_paths_nil.
  rewrite kept_nil, not_blocked_nil. destruct a; reflexivity.
Qed.

End Confirmed.
