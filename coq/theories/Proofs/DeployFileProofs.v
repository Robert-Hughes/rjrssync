(* Proofs about Model/DeployFile.v: after the deployment steps the remote program file can be
   started, whichever way the binary was staged; the chmod step is what makes that true for a
   generated binary, and a copy of the running program hides its absence. *)
From RJ Require Import Base.Prelude Model.DeployFile.
Local Open Scope N_scope.

Lemma chmod_sets_owner_x (m r : N) : N.testbit r 6 = false -> N.testbit (chmod_plus_x m r) 6 = true.
Proof.
  intros H. unfold chmod_plus_x, mask. rewrite N.lor_spec, N.ldiff_spec, H.
  replace (N.testbit 73 6) with true by reflexivity. apply orb_true_r.
Qed.

Lemma chmod_keeps_bits (m r n : N) : N.testbit m n = true -> N.testbit (chmod_plus_x m r) n = true.
Proof. intros H. unfold chmod_plus_x. rewrite N.lor_spec, H. reflexivity. Qed.

Lemma owner_x_can_exec (root : bool) (m : N) : N.testbit m 6 = true -> can_exec root m = true.
Proof.
  intros H. destruct root; cbn [can_exec]; [|exact H].
  destruct (N.land m 73 =? 0) eqn:E; [|reflexivity].
  apply N.eqb_eq in E.
  assert (X : N.testbit (N.land m 73) 6 = true).
  { rewrite N.land_spec, H. reflexivity. }
  rewrite E, N.bits_0 in X. discriminate.
Qed.

Lemma rw_has_no_x (n : N) : N.testbit 438 n && N.testbit 73 n = false.
Proof.
  rewrite <- N.land_spec. replace (N.land 438 73) with 0 by reflexivity. apply N.bits_0.
Qed.

(* a freshly written file (0o666 masked by any umask), uploaded as a new file under any remote umask *)
Lemma generated_upload_has_no_x (s b r : N) : N.land (scp_mode None (staged_mode StGenerated s b) r) 73 = 0.
Proof.
  apply N.bits_inj. intros n. cbn [scp_mode staged_mode]. unfold mask.
  rewrite N.bits_0, N.land_spec, N.ldiff_spec, N.land_spec, N.ldiff_spec.
  pose proof (rw_has_no_x n) as X.
  destruct (N.testbit 438 n), (N.testbit 73 n); try discriminate X;
    cbn [andb negb]; rewrite ?andb_false_r; reflexivity.
Qed.

Lemma generated_upload_cannot_exec (root : bool) (s b r : N) :
  can_exec root (scp_mode None (staged_mode StGenerated s b) r) = false.
Proof.
  destruct root; cbn [can_exec].
  - rewrite generated_upload_has_no_x. reflexivity.
  - pose proof (generated_upload_has_no_x s b r) as X.
    assert (Y : N.testbit (N.land (scp_mode None (staged_mode StGenerated s b) r) 73) 6 = false).
    { rewrite X. apply N.bits_0. }
    rewrite N.land_spec in Y. replace (N.testbit 73 6) with true in Y by reflexivity.
    rewrite andb_true_r in Y. exact Y.
Qed.

Lemma deploy_steps_shape :
  deploy_steps false = [SScp; SChmod; SLaunch] /\ deploy_steps true = [SScp; SLaunch].
Proof. split; reflexivity. Qed.

Lemma deployed_file_starts (native root : bool) (self_mode bumask rumask : N) (existing : option N) :
  N.testbit rumask 6 = false ->
  deploy_file false native root self_mode bumask rumask existing =
    mkWorld (Some (chmod_plus_x (scp_mode existing (staged_mode (choose_staging native) self_mode bumask) rumask) rumask))
            (Some true).
Proof.
  intros H. unfold deploy_file, run_steps, deploy_steps.
  cbn [app fold_left do_step w_remote w_started option_map orb].
  rewrite (owner_x_can_exec root _ (chmod_sets_owner_x _ _ H)). reflexivity.
Qed.

Lemma chmod_needed (root : bool) (self_mode bumask rumask : N) :
  w_started (run_steps false root (staged_mode (choose_staging false) self_mode bumask) rumask
                       (mkWorld None None) [SScp; SLaunch]) = Some false.
Proof.
  unfold run_steps. cbn [fold_left do_step w_remote w_started choose_staging orb].
  rewrite generated_upload_cannot_exec. reflexivity.
Qed.

Lemma copyself_hides_chmod (root : bool) (self_mode bumask rumask : N) :
  N.testbit self_mode 6 = true -> N.testbit rumask 6 = false ->
  w_started (run_steps false root (staged_mode (choose_staging true) self_mode bumask) rumask
                       (mkWorld None None) [SScp; SLaunch]) = Some true.
Proof.
  intros Hs Hr. unfold run_steps. cbn [fold_left do_step w_remote w_started choose_staging orb].
  rewrite owner_x_can_exec; [reflexivity|].
  cbn [scp_mode staged_mode]. unfold mask.
  rewrite N.ldiff_spec, N.land_spec, N.land_spec, Hs, Hr. reflexivity.
Qed.

(* non-vacuity / the numbers of the usual case: umask 022 on both sides, program file 0o755 *)
Example deploy_example :
  deploy_trace false false true 493 18 18 None =
    (420, [(SScp, mkWorld (Some 420) None); (SChmod, mkWorld (Some 493) None); (SLaunch, mkWorld (Some 493) (Some true))]) /\
  deploy_trace false true true 493 18 18 None =
    (493, [(SScp, mkWorld (Some 493) None); (SChmod, mkWorld (Some 493) None); (SLaunch, mkWorld (Some 493) (Some true))]) /\
  deploy_trace true false true 493 18 18 None =
    (420, [(SScp, mkWorld (Some 420) None); (SLaunch, mkWorld (Some 420) (Some true))]).
Proof. repeat split; vm_compute; reflexivity. Qed.
