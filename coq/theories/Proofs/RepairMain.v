(* C08 and C04 for the executable instance, with every listing hypothesis discharged: whatever state an interrupted
   or failed run leaves behind is a well-formed tree satisfying Good, so the executable sync run again
   from it (sorted listings of the real trees, real chunk ladder) mirrors the source whenever it returns Ok (C08);
   run again on what a successful run left, it does nothing (C04: run_top_again, run_top_twice). *)
From RJ Require Import Base.Prelude Base.OrderedPlan Model.Settings Model.Core Model.Fs Model.Paths Model.Sync Model.SyncTop
  Spec.PlanSpec Spec.Mirror Proofs.FsProofs Proofs.ExecProofs Proofs.MirrorProofs Proofs.PathsProofs Proofs.InstanceProofs
  Proofs.IdemProofs Proofs.IdemMain Proofs.CrashProofs Proofs.CrashMain Proofs.WfProofs.

Theorem kill_states_well_formed cfg S D a fw ans bits ls ld ft :
  unique_keys D -> wf_fs D ->
  (forall s, In s (sync_kill_states now_far normalize_unix chunk_real cfg S (world D a fw) ans bits ls ld ft) ->
     wf_fs (d_fs s) /\ unique_keys (d_fs s)) /\
  (wf_fs (d_fs (r_dest (run_orders_w cfg S D a fw ans bits ls ld ft))) /\
   unique_keys (d_fs (r_dest (run_orders_w cfg S D a fw ans bits ls ld ft)))).
Proof.
  intros Hu Hw. unfold sync_kill_states, run_orders_w. rewrite (sync_one_runs_plan now_far normalize_unix chunk_real).
  apply (steps_wfu (cf_fl cfg) ft). rewrite (sync_plan_start now_far normalize_unix chunk_real). split; assumption.
Qed.

Theorem rerun_repairs_executable cfg S D a fw ans bits ls ld ft s :
  unique_keys D -> wf_fs D ->
  (In s (sync_kill_states now_far normalize_unix chunk_real cfg S (world D a fw) ans bits ls ld ft) \/
   s = r_dest (run_orders_w cfg S D a fw ans bits ls ld ft)) ->
  no_through (d_events s) ->
  forall cfg2 ans2 bits2 ex ft2,
  unique_keys S -> wf_fs S -> src_times_set S -> links_utf8 S ->
  let r2 := run_top cfg2 S (d_fs s) (d_anc s) ans2 bits2 ex ft2 in
  r_ok r2 = true -> r_skipped r2 = [] -> r_root_skipped r2 = false -> cf_dry cfg2 = false -> cf_fl cfg2 = Unix ->
  mirror now_far (excl_incl ex) normalize_unix (cf_diff cfg2) Unix S (d_fs s) (d_fs (r_dest r2)) /\
  forall p t b, takes_part (excl_incl ex) S p -> fget S p = Some (NFile (TSet t) b) -> (t < 4000000000000000000)%Z ->
    fget (d_fs (r_dest r2)) p = Some (NFile (TSet t) b) \/
    exists b0, fget D p = Some (NFile (TSet t) b0) /\ fget (d_fs (r_dest r2)) p = Some (NFile (TSet t) b0).
Proof.
  intros HuD HwD Hs Hnt cfg2 ans2 bits2 ex ft2 HuS HwS Hts Hlk r2 Hok Hsk Hrs Hdry Hfl.
  destruct (kill_states_well_formed cfg S D a fw ans bits ls ld ft HuD HwD) as [K1 K2].
  destruct (crash_safe now_far normalize_unix chunk_real chunk_real_ok cfg S (world D a fw) ans bits ls ld ft eq_refl) as [G1 G2].
  assert (Hwf : wf_fs (d_fs s) /\ unique_keys (d_fs s)) by (destruct Hs as [Hs| ->]; [apply K1; exact Hs|exact K2]).
  assert (HG : Good S D s) by (destruct Hs as [Hs| ->]; [apply G1; assumption|apply G2; exact Hnt]).
  destruct Hwf as [Hw Hu].
  assert (Hm : mirror now_far (excl_incl ex) normalize_unix (cf_diff cfg2) Unix S (d_fs s) (d_fs (r_dest r2)))
    by (apply run_top_mirror_unconditional; auto).
  split; [exact Hm|]. intros p t b Htp HS Hlt.
  apply (mirror_files_repaired now_far (excl_incl ex) normalize_unix Unix (cf_diff cfg2) S D s (d_fs (r_dest r2)) HG Hm p t b Htp HS).
  intros k. unfold now_far. lia.
Qed.

(* C04 for the executable instance, closed: run the executable sync, then run it again on what it left -
   nothing assumed about the second listing (the tree it left is well-formed, so its sorted listing is valid),
   nor about the state of the root's ancestors the second time. *)
Lemma run_top_again cfg S D a ans bits ex ft a2 ans2 bits2 ft2 :
  unique_keys S -> wf_fs S -> unique_keys D -> wf_fs D -> src_times_set S -> links_utf8 S ->
  let r := run_top cfg S D a ans bits ex ft in
  r_ok r = true -> r_skipped r = [] -> r_root_skipped r = false -> cf_dry cfg = false -> cf_fl cfg = Unix ->
  b_same (cf_b cfg) = BSkip ->
  let r2 := run_top cfg S (d_fs (r_dest r)) a2 ans2 bits2 ex ft2 in
  r_ok r2 = true /\ d_fs (r_dest r2) = d_fs (r_dest r) /\ filter mutating (r_dest_trace r2) = [] /\
  (forall p, ~ In (CGetFileContent p) (r_src_trace r2)) /\ r_prompts r2 = [] /\ stats_nothing (r_stats r2) = true.
Proof.
  intros HuS HwS HuD HwD Hts Hlk. cbv zeta. intros Hok Hsk Hrs Hdry Hfl Hsame.
  pose proof (run_top_never_through cfg S D a ans bits ex ft HuS HwS HuD HwD) as Hnt.
  destruct (kill_states_well_formed cfg S D a [] ans bits
              (list_fs now_far (excl_incl ex) normalize_unix S) (list_fs now_far (excl_incl ex) normalize_unix D) ft HuD HwD) as [_ [Hw' Hu']].
  change (run_orders_w cfg S D a [] ans bits (list_fs now_far (excl_incl ex) normalize_unix S)
            (list_fs now_far (excl_incl ex) normalize_unix D) ft) with (run_top cfg S D a ans bits ex ft) in Hw', Hu'.
  set (r := run_top cfg S D a ans bits ex ft) in *.
  destruct (sync_twice_from now_far (excl_incl ex) normalize_unix chunk_real chunk_real_ok Unix
              cfg S (world D a []) ans bits _ _ ft (world (d_fs (r_dest r)) a2 []) ans2 bits2
              (list_fs now_far (excl_incl ex) normalize_unix (d_fs (r_dest r))) ft2
              (list_fs_valid now_far (excl_incl ex) normalize_unix S HuS HwS)
              (list_fs_valid now_far (excl_incl ex) normalize_unix D HuD HwD)
              HwS HwD Hts (links_utf8_roundtrip S Hlk) eq_refl Hok Hsk Hrs Hdry Hnt Hfl Hsame eq_refl
              (list_fs_valid now_far (excl_incl ex) normalize_unix (d_fs (r_dest r)) Hu' Hw'))
    as (T1 & T2 & T3 & T4 & T5 & T6).
  unfold run_top. repeat split; try assumption. rewrite T2. reflexivity.
Qed.

Theorem run_top_twice cfg S D a ans bits ex ft ans2 bits2 ft2 :
  unique_keys S -> wf_fs S -> unique_keys D -> wf_fs D -> src_times_set S -> links_utf8 S ->
  let r := run_top cfg S D a ans bits ex ft in
  r_ok r = true -> r_skipped r = [] -> r_root_skipped r = false -> cf_dry cfg = false -> cf_fl cfg = Unix ->
  b_same (cf_b cfg) = BSkip ->
  let r2 := run_top cfg S (d_fs (r_dest r)) (d_anc (r_dest r)) ans2 bits2 ex ft2 in
  r_ok r2 = true /\ d_fs (r_dest r2) = d_fs (r_dest r) /\ filter mutating (r_dest_trace r2) = [] /\
  (forall p, ~ In (CGetFileContent p) (r_src_trace r2)) /\ r_prompts r2 = [] /\ stats_nothing (r_stats r2) = true.
Proof. intros; apply run_top_again; assumption. Qed.

