(* Remote session model, runs without fault steps: while the boss still holds its socket the doer's sending thread does
   not end with Err, and its receiving thread only once the doer's main thread has dropped its receiver; a doer that leaves its message loop without having seen the Shutdown does so only after the boss gave up
   waiting for the final message.  Consequence (C14): fault-free + final + "the boss took the final message" =>
   the doer took the Shutdown. *)
From RJ Require Import Base.Prelude Model.RemoteSession Model.RemoteSessionLog Proofs.RemoteSessionBase Proofs.RemoteSessionFlow
  Proofs.RemoteSessionNonce Proofs.RemoteSessionAInv Proofs.RemoteSessionComplete.

Local Open Scope nat_scope.

Lemma next_nfault c a s s' : next c a s = Some s' -> nfault (ev s) <= nfault (ev s').
Proof.
  intros H. next_cases H;
    projs; try lia.
  - destruct (boss_move_env _ _ _ _ _ M) as (_ & _ & _ & _ & N & _). lia.
  - destruct (env_step_frame _ _ _ E) as (_ & _ & [N|[N _]]); lia.
Qed.

(* without a cut, a broken socket is a socket the other side has closed *)
Lemma d_broken_nocut s : cut (ev s) = false -> d_broken s = true -> bsock (ev s) = false.
Proof. unfold d_broken. intros ->. cbn [orb]. now destruct (bsock (ev s)). Qed.

Lemma b_broken_nocut s : cut (ev s) = false -> b_broken s = true -> dalive (ev s) = false.
Proof. unfold b_broken. intros ->. cbn [orb]. now destruct (dalive (ev s)). Qed.

Record FFA (s : st) : Prop := {
  k_cut : cut (ev s) = false;
  k_bad : bad_b2d (ev s) = false;
  k_good : allgood (b2d s) = true;
  k_snd : snd_t (de s) = SErr -> bsock (ev s) = false;
  k_rcv : rcv_t (de s) = RErr -> rxa (inc (de s)) = false \/ bsock (ev s) = false;
  k_ok : rcv_t (de s) = ROk -> In MShut (hgot (de s) ++ q (inc (de s)));
  (* out of its message loop the doer has taken the Shutdown, or the boss is past its final wait and took no final message *)
  k_left : (dpcw (dp (dm s)) <=? 9) = true ->
           In MShut (hgot (de s)) \/ (bpcw (pc (bm s)) <=? 6) = true /\ bfin (bm s) = false }.

(* until the doer has written its final message the boss cannot have taken it *)
Lemma bfin_false_before_exit c x s : reach c x s -> (1 <=? dpcw (dp (dm s))) = true -> bfin (bm s) = false.
Proof.
  intros R L. destruct (bfin (bm s)) eqn:B; [exfalso|reflexivity].
  destruct (b_fin _ (reach_boss_inv _ _ _ R) B) as (zs & E). apply (d_nofin _ (reach_doer_inv _ _ _ R) L).
  apply (flow_incl _ _ _ _ (dir_flow _ _ _ (fi_d2b _ (reach_finv _ _ _ R)))).
  rewrite E. apply in_or_app. left. apply in_or_app. right. now left.
Qed.

(* the boss has closed its socket: it has given up waiting for the final message *)
Lemma gave_up c x s : reach c x s -> (1 <=? dpcw (dp (dm s))) = true -> bsock (ev s) = false ->
  (bpcw (pc (bm s)) <=? 6) = true /\ bfin (bm s) = false.
Proof.
  intros R L B. split; [|now apply (bfin_false_before_exit c x)].
  rewrite (b_sock _ (reach_boss_inv _ _ _ R)) in B. now destruct (pc (bm s)).
Qed.

Lemma boss_move_bfin s p o b' v' : boss_move s p o b' v' -> (bpcw p <=? 6) = true -> bfin b' = bfin (bm s).
Proof. intros []; try discriminate; reflexivity. Qed.

Lemma ffa_step c x a s s' : reach c x s -> next c a s = Some s' -> nfault (ev s') = 0 -> FFA s -> FFA s'.
Proof.
  intros R H NF [Kc Kb Kg Ks Kr Ko Kl].
  destruct (reach_finv _ _ _ R) as [[F1 _ _ Tx] [_ Rx Dn _]].
  pose proof (reach_doer_inv _ _ _ R) as DI. pose proof (gave_up _ _ _ R) as GU.
  next_cases H.
  - destruct (boss_move_env _ _ _ _ _ M) as (E1 & _ & E2 & _ & _ & E3).
    constructor; projs; rewrite ?E1, ?E2; auto.
    + intros Z. destruct (Kr Z); auto.
    + intros L. destruct (Kl L) as [Y|[Y1 Y2]]; [now left | right]. rewrite P in Y1. split.
      * pose proof (boss_move_rank _ _ _ _ _ M P). apply Nat.leb_le in Y1. apply Nat.leb_le. lia.
      * now rewrite (boss_move_bfin _ _ _ _ _ M Y1).
  - destruct (ep_do_threads (de s) o) as (E1 & E2 & _).
    constructor; projs; rewrite ?E1, ?E2; auto.
    + intros Z. destruct (Kr Z) as [Y|Y]; [left | now right]. destruct o; cbn [ep_do]; projs; auto.
    + intros Z. specialize (Ko Z). destruct o; cbn [ep_do]; projs; auto.
      destruct C as [t Q]. now rewrite (took_head _ _ _ _ Q).
    + (* the doer leaves its loop *)
      intros L. destruct M; cbn [ep_do]; projs; rewrite ?P in L; try discriminate L; try (apply Kl; rewrite P; reflexivity).
      all: rewrite P in GU; specialize (GU eq_refl).
      all: pose proof (d_txa _ DI) as Dt; pose proof (d_rxa _ DI) as Dr; rewrite P in Dt, Dr.
      * (* its sending thread has ended, and not Ok, since the doer still holds its end of the channel *)
        right. apply GU, Ks. rewrite H0 in Rx. destruct (snd_t (de s)); try discriminate Rx; [|reflexivity].
        destruct (Dn eq_refl) as [_ Z]. rewrite (Dt eq_refl) in Z. discriminate Z.
      * left. apply in_or_app. right. now left.
      * exfalso. destruct C as [t Q]. pose proof (b_msg _ (reach_boss_inv _ _ _ R)) as Y. rewrite Forall_forall in Y.
        rewrite Y in H0; [discriminate H0|]. apply (flow_incl _ _ _ _ F1). rewrite Q. apply in_or_app. right. now left.
      * (* its receiving thread has ended: Ok after the Shutdown, Err only after the boss closed the socket *)
        rewrite H1 in Tx. destruct (rcv_t (de s)); try discriminate Tx.
        -- left. specialize (Ko eq_refl). now rewrite H0, app_nil_r in Ko.
        -- right. apply GU. destruct (Kr eq_refl) as [Z|Z]; [|exact Z]. rewrite (Dr eq_refl) in Z. discriminate Z.
  - constructor; projs; auto. intros _. apply Kl. rewrite P. reflexivity.
  - rewrite Kb in E. destruct E; constructor; projs; auto. rewrite allgood_app, Kg. reflexivity.
  - constructor; projs; auto.
  - destruct (snd_spec_in _ _ _ _ _ _ _ _ E) as (E1 & E2 & _ & E4).
    constructor; projs; rewrite ?E1, ?E2, ?E4; auto.
    intros Z. destruct E as [| | m T B |]; try discriminate Z. now apply d_broken_nocut.
  - destruct (rcv_spec_out _ _ _ _ _ _ E) as (E1 & _).
    destruct E as [f t K W G N | f t K W G | K W E | m K C X Z | m K C X Z | m K X]; constructor; projs; rewrite ?E1;
      auto; try discriminate.
    + rewrite W in Kg. now apply andb_true_iff in Kg.
    + rewrite W in Kg. now apply andb_true_iff in Kg.
    + (* an honest frame that carries the expected nonce is not rejected *)
      exfalso. rewrite W in Kg. apply andb_true_iff in Kg as [Gf _]. destruct G as [G|G]; [congruence|].
      apply G. apply (proj1 (expected_nonce _ _ _ R)) with t; [rewrite K; reflexivity | exact W].
    + intros _. right. now apply d_broken_nocut.
    + (* the only final message the boss sends is the Shutdown *)
      intros _. pose proof (b_msg _ (reach_boss_inv _ _ _ R)) as Y. rewrite Forall_forall in Y.
      specialize (Y m (flow_held _ _ _ _ F1 K)). rewrite app_assoc. apply in_or_app. right. left.
      destruct m; try discriminate Y; try discriminate Z; reflexivity.
  - projs. destruct (env_step_frame _ _ _ E) as (K1 & _ & [N|(_ & K2 & K3 & _)]); [rewrite N in NF; discriminate NF|].
    constructor; projs; rewrite ?K1, ?K2, ?K3; auto.
Qed.

Lemma reach_ffa c x s : reach c x s -> nfault (ev s) = 0 -> FFA s.
Proof.
  revert s. apply (reach_next_ind c x (fun s => nfault (ev s) = 0 -> FFA s)).
  - intros _. constructor; unfold init; projs; cbn [dpcw Nat.leb]; try reflexivity; discriminate.
  - intros a s s' R IH H NF. pose proof (next_nfault _ _ _ _ H). eapply ffa_step; eauto. apply IH. lia.
Qed.

(* fault-free: a boss that took the final message as its final message => the doer took the Shutdown *)
Theorem faultfree_final_taken c x s : reach c x s -> nfault (ev s) = 0 -> bfin (bm s) = true ->
  In MShut (hgot (de s)).
Proof.
  intros R NF B. destruct (dpcw (dp (dm s))) as [|n] eqn:L.
  - destruct (k_left _ (reach_ffa _ _ _ R NF)) as [Y|[_ Y]]; [rewrite L; reflexivity | exact Y | congruence].
  - rewrite (bfin_false_before_exit c x s R) in B; [discriminate B | rewrite L; reflexivity].
Qed.

(* completeness (C14) with "the boss took the final message" as the premise about the protocol *)
Theorem remote_complete_faultfree_bfin c x s : reach c x s -> nfault (ev s) = 0 -> bfin (bm s) = true ->
  hgot (de s) = hsent (be s) /\ hgot (be s) = hsent (de s) /\ dexec (dm s) = cmd_ids (hsent (be s)) /\
  q (inc (de s)) = [] /\ q (inc (be s)) = [].
Proof.
  intros R NF B. apply (remote_complete_partial c x); auto. eapply faultfree_final_taken; eauto.
Qed.

(* A decidable premise on the boss's protocol under which the boss takes the final message as its final message in
   every fault-free run that ends (NOT proved - see design.d/C14.md): every answer a command produces is received
   (blocking) before the final wait; polls are allowed anywhere and are not counted on to drain anything. *)
Fixpoint reads_all (out : nat) (l : list op) : bool :=
  match l with
  | [] => Nat.eqb out 0
  | OSend _ rs :: t => reads_all (out + length rs) t
  | ORecv :: t => match out with O => false | S n => reads_all n t end
  | OTry :: t => reads_all out t
  end.
Definition reads_all_answers (l : list op) : bool := reads_all 0 l.
