(* The destination stays a well-formed tree (every entry's ancestors are folders, one node per path) in
   every state a run can leave behind - so the next run's listing is a valid listing of it and C01/C08's
   theorems apply to the executable instance from ANY such state. *)
From RJ Require Import Base.Prelude Base.OrderedPlan Model.Settings Model.Core Model.Fs Model.Sync
  Proofs.FsProofs Proofs.PathLemmas Proofs.PlanCProofs Proofs.ExecProofs Proofs.MirrorProofs Proofs.InstanceProofs
  Proofs.CrashProofs.

Lemma aremove_keys_incl {V} k (m : list (path * V)) x : In x (map fst (aremove path path_eq_dec k m)) -> In x (map fst m) /\ x <> k.
Proof.
  induction m as [|[k' v] m IH]; cbn [aremove map fst]; [intros []|].
  destruct (path_eq_dec k k') as [->|Hne]; cbn [map fst In].
  - intros H. destruct (IH H) as [H1 H2]. split; [right; exact H1|exact H2].
  - intros [<-|H]; [split; [left; reflexivity|congruence]|]. destruct (IH H) as [H1 H2]. split; [right; exact H1|exact H2].
Qed.
Lemma aremove_nodup {V} k (m : list (path * V)) : NoDup (map fst m) -> NoDup (map fst (aremove path path_eq_dec k m)).
Proof.
  induction m as [|[k' v] m IH]; cbn [aremove map fst]; intros H; [constructor|].
  inversion H as [|? ? Hn Hnd]; subst. destruct (path_eq_dec k k'); [apply IH; exact Hnd|].
  cbn [map fst]. constructor; [|apply IH; exact Hnd]. intros Hin. apply Hn. apply (aremove_keys_incl k m k' Hin).
Qed.
Lemma uk_fdel f p : unique_keys f -> unique_keys (fdel f p).
Proof. apply aremove_nodup. Qed.
Lemma uk_fset f p n : unique_keys f -> unique_keys (fset f p n).
Proof.
  intros H. unfold unique_keys, fset, ainsert. cbn [map fst]. constructor; [|apply aremove_nodup; exact H].
  intros Hin. destruct (aremove_keys_incl p f p Hin) as [_ Hne]. congruence.
Qed.

Lemma wf_fset f p n :
  wf_fs f -> (forall q, is_strict_prefix q p = true -> fget f q = Some NFolder) ->
  (fget f p <> Some NFolder \/ n = NFolder) -> wf_fs (fset f p n).
Proof.
  intros Hw Hpre Hleaf r m Hr q Hq. destruct (path_eq_dec q p) as [->|Hqp].
  - assert (Hrp : r <> p) by (intros ->; apply strict_prefix_neq in Hq; congruence).
    rewrite fget_fset_ne in Hr by exact Hrp. pose proof (Hw r m Hr p Hq) as Hp.
    destruct Hleaf as [Hl| ->]; [congruence|apply fget_fset_eq].
  - rewrite fget_fset_ne by exact Hqp. destruct (path_eq_dec r p) as [->|Hrp]; [apply Hpre; exact Hq|].
    rewrite fget_fset_ne in Hr by exact Hrp. exact (Hw r m Hr q Hq).
Qed.

Lemma wf_fdel f p :
  wf_fs f -> (forall r m, fget f r = Some m -> is_strict_prefix p r = false) -> wf_fs (fdel f p).
Proof.
  intros Hw Hnc r m Hr q Hq.
  assert (Hrp : r <> p) by (intros ->; rewrite fget_fdel_eq in Hr; discriminate).
  rewrite fget_fdel_ne in Hr by exact Hrp. destruct (path_eq_dec q p) as [->|Hqp].
  - rewrite (Hnc r m Hr) in Hq. discriminate.
  - rewrite fget_fdel_ne by exact Hqp. exact (Hw r m Hr q Hq).
Qed.

Lemma leaf_no_children f p : wf_fs f -> fget f p <> Some NFolder -> forall r m, fget f r = Some m -> is_strict_prefix p r = false.
Proof.
  intros Hw Hl r m Hr. destruct (is_strict_prefix p r) eqn:E; [|reflexivity]. exfalso. apply Hl. exact (Hw r m Hr p E).
Qed.
Lemma no_children_spec f p : has_children f p = false -> forall r m, fget f r = Some m -> is_strict_prefix p r = false.
Proof.
  unfold has_children. intros H r m Hr. apply alookup_some_in in Hr.
  destruct (is_strict_prefix p r) eqn:E; [|reflexivity]. exfalso.
  assert (Hex : existsb (fun e => is_strict_prefix p (fst e)) f = true) by (apply existsb_exists; exists (r, m); split; [exact Hr|exact E]).
  congruence.
Qed.

Lemma check_above_ok f : forall rest pre, check_above f pre rest = PROk ->
  forall k, k < length rest -> fget f (pre ++ firstn k rest) = Some NFolder.
Proof.
  induction rest as [|c rest IH]; intros pre H k Hk; [cbn in Hk; lia|].
  destruct rest as [|c2 rest'].
  - cbn [check_above] in H. cbn [length] in Hk. assert (k = 0) by lia. subst k. cbn [firstn]. rewrite app_nil_r.
    destruct (fget f pre) as [[| |t [| |]]|]; try discriminate. reflexivity.
  - cbn [check_above] in H.
    destruct (fget f pre) as [[| |t [| |]]|] eqn:E; try discriminate.
    destruct k as [|k']; [cbn [firstn]; rewrite app_nil_r; exact E|].
    cbn [firstn]. change (pre ++ c :: firstn k' (c2 :: rest')) with (pre ++ [c] ++ firstn k' (c2 :: rest')).
    rewrite app_assoc. apply IH; [exact H|]. cbn [length] in *. lia.
Qed.

Lemma resolve_ok_prefixes st p : resolve_above st p = PROk ->
  forall q, is_strict_prefix q p = true -> fget (d_fs st) q = Some NFolder.
Proof.
  intros H q Hq. apply strict_prefix_iff in Hq as (k & Hk & ->).
  destruct p as [|c r]; [cbn in Hk; lia|]. unfold resolve_above in H.
  exact (check_above_ok (d_fs st) (c :: r) [] H k Hk).
Qed.

Definition wfu (f : fs) : Prop := wf_fs f /\ unique_keys f.

Lemma wfu_set_leaf st p n :
  wfu (d_fs st) -> resolve_above st p = PROk -> fget (d_fs st) p <> Some NFolder -> wfu (fset (d_fs st) p n).
Proof.
  intros [Hw Hu] Hr Hl. split; [|apply uk_fset; exact Hu].
  apply wf_fset; [exact Hw|apply resolve_ok_prefixes; exact Hr|left; exact Hl].
Qed.
Lemma wfu_set_existing f p m d n : wfu f -> fget f p = Some (NFile m d) -> wfu (fset f p n).
Proof.
  intros [Hw Hu] Hp. split; [|apply uk_fset; exact Hu].
  apply wf_fset; [exact Hw|intros q Hq; exact (Hw p _ Hp q Hq)|left; rewrite Hp; discriminate].
Qed.
Lemma wfu_del_leaf f p : wfu f -> fget f p <> Some NFolder -> wfu (fdel f p).
Proof.
  intros [Hw Hu] Hl. split; [|apply uk_fdel; exact Hu]. apply wf_fdel; [exact Hw|apply leaf_no_children; assumption].
Qed.
Lemma wfu_del_empty f p : wfu f -> has_children f p = false -> wfu (fdel f p).
Proof.
  intros [Hw Hu] Hc. split; [|apply uk_fdel; exact Hu]. apply wf_fdel; [exact Hw|apply no_children_spec; exact Hc].
Qed.

Lemma write_chunk_wfu st p data m d : wfu (d_fs st) -> fget (d_fs st) p = Some (NFile m d) -> wfu (d_fs (write_chunk st p data)).
Proof. intros H Hp. unfold write_chunk. dsimpl. eapply wfu_set_existing; eauto. Qed.
Lemma stamp_wfu st p t m d : wfu (d_fs st) -> fget (d_fs st) p = Some (NFile m d) -> wfu (d_fs (stamp_file st p t)).
Proof. intros H Hp. unfold stamp_file. dsimpl. eapply wfu_set_existing; eauto. Qed.

Lemma open_wfu st p st1 :
  wfu (d_fs st) -> open_for_write st p = OpFile st1 ->
  wfu (d_fs st1) /\ exists m d, fget (d_fs st1) p = Some (NFile m d).
Proof.
  intros H Ho. apply open_file in Ho as [(_ & Hp & ->)|(_ & Hr & Hl & ->)]; dsimpl; [split; assumption|].
  split; [apply wfu_set_leaf; assumption|rewrite fget_fset_eq; eauto].
Qed.

Lemma chunk_end_wfu st1 p data mt more m d :
  wfu (d_fs st1) -> fget (d_fs st1) p = Some (NFile m d) -> wfu (d_fs (fst (chunk_end st1 p data mt more))).
Proof.
  intros H1 Hp1. pose proof (write_chunk_wfu (count_write st1) p data m d H1 Hp1) as Hw.
  unfold chunk_end. destruct (write_fails st1); [exact Hw|]. destruct mt as [t|]; [|exact Hw].
  cbn [fst]. eapply stamp_wfu; [exact Hw|]. unfold write_chunk. dsimpl. apply fget_fset_eq.
Qed.

Lemma nc_wfu fl st c : is_chunk c = false -> wfu (d_fs st) -> wfu (d_fs (fst (doer_exec fl st c))).
Proof.
  intros Hc H. destruct (doer_exec_nc fl st c Hc) as [| | | | |p n _ Hr Ef|p _ Hr [Hl|Hl]]; dsimpl; try exact H.
  - apply wfu_set_leaf; [exact H|exact Hr|rewrite Ef; discriminate].
  - apply wfu_del_leaf; assumption.
  - apply wfu_del_empty; assumption.
Qed.

Lemma doer_exec_wfu fl st c : wfu (d_fs st) -> wfu (d_fs (fst (doer_exec fl st c))).
Proof.
  intros H. destruct (is_chunk c) eqn:Hc; [|apply nc_wfu; assumption]. destruct c; try discriminate Hc.
  destruct (blocked_at st p) eqn:Hb; [cbn [doer_exec]; rewrite Hb; exact H|].
  destruct (refuses st p) eqn:Hr; [cbn [doer_exec]; rewrite Hb, Hr; exact H|].
  rewrite chunk_exec by assumption. destruct (open_for_write _ p) as [st1|st1|e] eqn:Eo; [| |exact H].
  - destruct (open_wfu (with_failed st (if more then Some p else None)) p st1 H Eo) as [H1 (m & d & Hp1)]. eapply chunk_end_wfu; eassumption.
  - dsimpl. rewrite (open_outside_fs _ _ _ Eo). exact H.
Qed.

Lemma cmd_states_wfu fl st c : wfu (d_fs st) -> forall s, In s (cmd_states fl st c) -> wfu (d_fs s).
Proof.
  intros H s Hin.
  apply cmd_states_cases in Hin as [->|(p & data & mt & more & st1 & _ & _ & _ & [(Eo & ->)|(Eo & Hs)])].
  - apply doer_exec_wfu. exact H.
  - rewrite (open_outside_fs _ _ _ Eo). exact H.
  - destruct (open_wfu (with_failed st (if more then Some p else None)) p st1 H Eo) as [H1 (m & d & Hp1)]. destruct Hs as [->|(k & ->)]; [exact H1|].
    eapply write_chunk_wfu; [exact H1|exact Hp1].
Qed.

Section Steps.
Variable fl : flavour.
Variable ft : faults.

Lemma steps_wfu steps : forall r, wfu (d_fs (rs_d r)) ->
  (forall s, In s (steps_states fl ft r steps) -> wfu (d_fs s)) /\ wfu (d_fs (rs_d (run_steps fl ft r steps))).
Proof.
  apply (steps_inv fl ft (fun r => wfu (d_fs (rs_d r))) (fun s => wfu (d_fs s))). intros r s _ H. split.
  - rewrite run_step_d. destruct (executes ft r s); [apply doer_exec_wfu; exact H|].
    destruct (idle_same ft r s) as [E _]. rewrite E. exact H.
  - intros x Hin. apply step_states_in in Hin as (c & _ & Hin). exact (cmd_states_wfu fl (rs_d r) c H x Hin).
Qed.

End Steps.
