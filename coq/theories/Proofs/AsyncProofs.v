(* The two-process model of Model/Async.v: exit 0 is sound and no error reply is ever lost, on EVERY
   interleaving of boss and doer. *)
From RJ Require Import Base.Prelude Model.Core Model.Fs Model.Sync Model.Async Proofs.DryProofs.

Section AsyncProofs.
Variable exec : dstate -> cmd -> dstate * option errc.
Notation astep := (astep exec).
Notation areach := (areach exec).
Notation run_all := (run_all exec).
Notation errs_all := (errs_all exec).

Lemma run_all_app d a b : run_all d (a ++ b) = run_all (run_all d a) b.
Proof. revert d; induction a as [|c r IH]; intros d; cbn [run_all app]; auto. Qed.
Lemma errs_all_app d a b : errs_all d (a ++ b) = errs_all d a ++ errs_all (run_all d a) b.
Proof. revert d; induction a as [|c r IH]; intros d; cbn [errs_all run_all app]; [reflexivity|]. rewrite IH, app_assoc. reflexivity. Qed.

Definition qcmds (q : list qitem) : list cmd := flat_map (fun x => match x with QCmd c => [c] | QDone => [] end) q.
Definition has_done (q : list qitem) : bool := existsb (fun x => match x with QDone => true | _ => false end) q.
Definition rerrs (i : list reply) : list errc := flat_map (fun x => match x with RErr e => [e] | RDone => [] end) i.
Definition has_rdone (i : list reply) : bool := existsb (fun x => match x with RDone => true | _ => false end) i.

Lemma qcmds_app a b : qcmds (a ++ b) = qcmds a ++ qcmds b. Proof. apply flat_map_app. Qed.
Lemma rerrs_app a b : rerrs (a ++ b) = rerrs a ++ rerrs b. Proof. apply flat_map_app. Qed.
Lemma has_done_app a b : has_done (a ++ b) = has_done a || has_done b. Proof. apply existsb_app. Qed.
Lemma has_rdone_app a b : has_rdone (a ++ b) = has_rdone a || has_rdone b. Proof. apply existsb_app. Qed.
Lemma rerrs_err_reply e : rerrs (err_reply e) = err_list e. Proof. destruct e; reflexivity. Qed.
Lemma has_rdone_err_reply e : has_rdone (err_reply e) = false. Proof. destruct e; reflexivity. Qed.

Variable d0 : dstate.
Variable steps : list bstep.

Definition todo_cmds (b : bmode) : list cmd := match b with BRun todo => dest_cmds todo | _ => [] end.
Definition running (b : bmode) : bool := match b with BRun _ => true | _ => false end.

(* Four invariants, each kept by every transition on its own (the last with the help of the third). *)

Definition Inv_exec (s : asys) : Prop := a_d s = run_all d0 (a_done s) /\ a_errs s = errs_all d0 (a_done s).

(* executed ++ queued ++ still to send is the plan; after the boss has given up, a prefix of it *)
Definition Inv_plan (s : asys) : Prop :=
  exists rest, dest_cmds steps = a_done s ++ qcmds (a_queue s) ++ rest /\
    match a_boss s with BRun todo => rest = dest_cmds todo | BWait | BOk => rest = [] | BFail => True end.

(* the final marker is queued / answered only once the boss waits, and it is the last thing *)
Definition Inv_mark (s : asys) : Prop :=
  (running (a_boss s) = true -> has_done (a_queue s) = false /\ has_rdone (a_inbox s) = false) /\
  (has_rdone (a_inbox s) = true -> a_queue s = [] /\ exists pre, a_inbox s = pre ++ [RDone] /\ has_rdone pre = false) /\
  (has_done (a_queue s) = true -> exists pre, a_queue s = pre ++ [QDone] /\ has_done pre = false).

(* while the boss has not given up, it has read no error: every error the doer answered is still in the inbox;
   once it reports Ok, there was none *)
Definition Inv_errs (s : asys) : Prop :=
  match a_boss s with
  | BRun _ | BWait => rerrs (a_inbox s) = a_errs s
  | BOk => a_errs s = [] /\ a_queue s = []
  | BFail => True
  end.

Definition Inv (s : asys) : Prop := Inv_exec s /\ Inv_plan s /\ Inv_mark s /\ Inv_errs s.

Lemma inv_init : Inv (ainit d0 steps).
Proof.
  unfold Inv, ainit. repeat split; try discriminate. exists (dest_cmds steps). split; reflexivity.
Qed.

Lemma has_done_last pre : has_done (pre ++ [QDone]) = true.
Proof. rewrite has_done_app. cbn. apply orb_true_r. Qed.

Lemma exec_step s s' : Inv_exec s -> astep s s' -> Inv_exec s'.
Proof.
  intros [I1 I2] Hst. destruct Hst; try (split; assumption). unfold Inv_exec. cbn [a_d a_done a_errs] in *. split.
  - rewrite run_all_app, <- I1. reflexivity.
  - rewrite errs_all_app, <- I2, <- I1. cbn [errs_all]. rewrite app_nil_r. reflexivity.
Qed.

Lemma plan_step s s' : Inv_plan s -> astep s s' -> Inv_plan s'.
Proof.
  intros (rest & E & Hb) Hst. unfold Inv_plan.
  destruct Hst; cbn [a_boss a_queue a_done] in *;
    try (exists rest; split; [exact E|first [exact Hb|exact I]]).
  - exists rest. split; [rewrite E, <- app_assoc; reflexivity|exact Hb].
  - exists (dest_cmds rest0). split; [|reflexivity]. rewrite qcmds_app, E, Hb, <- app_assoc. reflexivity.
  - exists []. split; [|reflexivity]. rewrite qcmds_app, E, Hb, <- app_assoc. reflexivity.
Qed.

(* a list whose only marker is its last element *)
Lemma done_last_head x pre q : x :: q = pre ++ [QDone] -> has_done pre = false ->
  match x with QDone => q = [] | QCmd _ => exists pre', q = pre' ++ [QDone] /\ has_done pre' = false end.
Proof.
  intros E Hp. destruct pre as [|y pre']; inversion E; subst; [reflexivity|].
  destruct y; [eauto|discriminate Hp].
Qed.
Lemma rdone_last_head x pre i : x :: i = pre ++ [RDone] -> has_rdone pre = false ->
  match x with RDone => i = [] | RErr _ => exists pre', i = pre' ++ [RDone] /\ has_rdone pre' = false end.
Proof.
  intros E Hp. destruct pre as [|y pre']; inversion E; subst; [reflexivity|].
  destruct y; [eauto|discriminate Hp].
Qed.

Lemma mark_step s s' : Inv_mark s -> astep s s' -> Inv_mark s'.
Proof.
  intros (Mr & Mi & Mq) Hst. unfold Inv_mark.
  destruct Hst; cbn [a_boss a_queue a_inbox running] in *; (split; [|split]);
    try assumption; try (intros Hr; discriminate Hr).
  (* the doer executes a command *)
  - intros Hr. destruct (Mr Hr) as [A B]. split; [exact A|].
    rewrite has_rdone_app, has_rdone_err_reply, B. reflexivity.
  - intros Hd. rewrite has_rdone_app, has_rdone_err_reply, orb_false_r in Hd. destruct (Mi Hd) as [A _]. discriminate.
  - intros Hd. destruct (Mq Hd) as (pre & E & Hp). exact (done_last_head _ _ _ E Hp).
  (* the doer answers the final marker *)
  - intros Hr. destruct (Mr Hr) as [A _]. discriminate A.
  - intros _. destruct (Mq eq_refl) as (pre & E & Hp). split; [exact (done_last_head _ _ _ E Hp)|].
    exists i. split; [reflexivity|]. destruct (has_rdone i) eqn:Er; [|reflexivity]. destruct (Mi eq_refl) as [A _]. discriminate.
  - intros Hd. destruct (Mq eq_refl) as (pre & E & Hp). rewrite (done_last_head _ _ _ E Hp) in Hd. discriminate Hd.
  (* the boss sends a command *)
  - intros _. destruct (Mr eq_refl) as [A B]. split; [|exact B]. rewrite has_done_app, A. reflexivity.
  - intros Hr. destruct (Mr eq_refl) as [A B]. rewrite B in Hr. discriminate.
  - intros Hd. destruct (Mr eq_refl) as [A B]. rewrite has_done_app, A in Hd. discriminate Hd.
  (* everything sent: the final marker *)
  - intros Hr. destruct (Mr eq_refl) as [A B]. rewrite B in Hr. discriminate.
  - intros _. destruct (Mr eq_refl) as [A B]. exists q. split; [reflexivity|exact A].
  (* the boss sees an error while running *)
  - intros Hr. destruct (Mr eq_refl) as [A B]. change (has_rdone i = false) in B. rewrite B in Hr. discriminate.
  (* the boss sees an error while waiting *)
  - intros Hr. destruct (Mi Hr) as [A (pre & E & Hp)]. split; [exact A|]. exact (rdone_last_head _ _ _ E Hp).
  (* the boss sees the echo of the final marker *)
  - intros Hr. destruct (Mi eq_refl) as [A (pre & E & Hp)]. rewrite (rdone_last_head _ _ _ E Hp) in Hr. discriminate Hr.
Qed.

Lemma errs_step s s' : Inv_mark s -> Inv_errs s -> astep s s' -> Inv_errs s'.
Proof.
  intros (_ & Mi & _) Ie Hst. unfold Inv_errs in *.
  destruct Hst; cbn [a_boss a_queue a_inbox a_errs] in *; try exact Ie; try exact I.
  - destruct b; try exact I; [| |destruct Ie as [_ Hq0]; discriminate Hq0]; rewrite rerrs_app, rerrs_err_reply, Ie; reflexivity.
  - destruct b; try exact I; [| |destruct Ie as [_ Hq0]; discriminate Hq0];
      rewrite rerrs_app; cbn [rerrs flat_map]; rewrite app_nil_r; exact Ie.
  - destruct (Mi eq_refl) as [A (pre & E & Hp)]. rewrite (rdone_last_head _ _ _ E Hp) in Ie. split; [symmetry; exact Ie|exact A].
Qed.

Lemma inv_step s s' : Inv s -> astep s s' -> Inv s'.
Proof.
  intros (I1 & I2 & I3 & I4) Hst.
  split; [eapply exec_step|split; [eapply plan_step|split; [eapply mark_step|eapply errs_step]]]; eassumption.
Qed.

Lemma inv_reach s : areach (ainit d0 steps) s -> Inv s.
Proof. induction 1 as [|s s' Hr IH Hs]; [apply inv_init|eapply inv_step; eauto]. Qed.

(* Exit status 0 on every interleaving: the doer has executed the whole plan, in order, nothing is left in
   the queue, and not one command was answered with an error. *)
Theorem async_ok_sound s :
  areach (ainit d0 steps) s -> a_boss s = BOk ->
  a_done s = dest_cmds steps /\ a_d s = run_all d0 (dest_cmds steps) /\ errs_all d0 (dest_cmds steps) = [] /\ a_queue s = [].
Proof.
  intros Hr Hb. destruct (inv_reach s Hr) as ([I1 I2] & (rest & I3 & Hrest) & _ & Ie). unfold Inv_errs in Ie. rewrite Hb in *.
  destruct Ie as [He Hq]. rewrite Hq, Hrest, !app_nil_r in I3.
  rewrite I3. repeat split; auto. rewrite <- I2. exact He.
Qed.

(* No error is ever lost: if the doer answered any command with an error - however late - the boss does not report Ok. *)
Theorem async_no_error_lost s :
  areach (ainit d0 steps) s -> a_errs s <> [] -> a_boss s <> BOk.
Proof.
  intros Hr He Hb. destruct (inv_reach s Hr) as (_ & _ & _ & Ie). unfold Inv_errs in Ie. rewrite Hb in Ie. destruct Ie; contradiction.
Qed.

(* in every reachable state the doer's world is the sequential execution of what it has executed; unless the
   boss has given up (BFail), that is a PREFIX of the plan *)
Theorem async_prefix s :
  areach (ainit d0 steps) s -> a_d s = run_all d0 (a_done s) /\
  (a_boss s <> BFail -> exists rest, dest_cmds steps = a_done s ++ rest).
Proof.
  intros Hr. destruct (inv_reach s Hr) as ([I1 _] & (rest & I3 & _) & _). split; [exact I1|]. eauto.
Qed.

End AsyncProofs.

Section AsyncTermination.
Variable exec : dstate -> cmd -> dstate * option errc.

Definition boss_weight (b : bmode) : nat :=
  match b with BRun todo => 3 * length todo + 4 | BWait => 1 | BOk => 0 | BFail => 0 end.
Definition ameasure (s : asys) : nat := boss_weight (a_boss s) + 2 * length (a_queue s) + length (a_inbox s).

Lemma err_reply_len e : length (err_reply e) <= 1.
Proof. destruct e; cbn; lia. Qed.

Theorem astep_decreases s s' : Async.astep exec s s' -> ameasure s' < ameasure s.
Proof.
  intros H. destruct H; unfold ameasure; cbn [a_boss a_queue a_inbox boss_weight length]; rewrite ?app_length; cbn [length];
    try (pose proof (err_reply_len (snd (exec d c)))); lia.
Qed.

Inductive apath : nat -> asys -> asys -> Prop :=
| ap_nil s : apath 0 s s
| ap_cons n s s' s'' : Async.astep exec s s' -> apath n s' s'' -> apath (S n) s s''.

Theorem async_bounded n s s' : apath n s s' -> n + ameasure s' <= ameasure s.
Proof.
  induction 1 as [s|n s s1 s2 Hst Hp IH]; [lia|]. pose proof (astep_decreases s s1 Hst). lia.
Qed.

Corollary async_terminates d0 steps n s : apath n (ainit d0 steps) s -> n <= 3 * length steps + 4.
Proof.
  intros H. pose proof (async_bounded n _ _ H) as Hb. unfold ameasure, ainit in Hb. cbn [a_boss a_queue a_inbox boss_weight length] in Hb. lia.
Qed.

End AsyncTermination.

From RJ Require Import Proofs.StepProofs Proofs.ExecProofs.
Section AsyncVsSync.
Variable fl : flavour.

Lemma run_all_exec_all cmds : forall d, run_all (doer_exec fl) d cmds = exec_all fl d cmds.
Proof. induction cmds as [|c r IH]; intros d; cbn [run_all exec_all]; auto. Qed.

Lemma errs_all_nil_all_ok cmds : forall d, errs_all (doer_exec fl) d cmds = [] -> all_ok fl d cmds.
Proof.
  induction cmds as [|c r IH]; intros d H; cbn [errs_all all_ok] in *; [exact I|].
  apply app_eq_nil in H as [H1 H2]. split; [destruct (snd (doer_exec fl d c)); [discriminate|reflexivity]|apply IH; exact H2].
Qed.

Lemma run_steps_all_ok steps : forall r,
  rs_srcfail r = false -> rs_budget r = None -> all_ok fl (rs_d r) (dest_cmds steps) ->
  rs_d (run_steps fl no_faults r steps) = exec_all fl (rs_d r) (dest_cmds steps) /\
  rs_errs (run_steps fl no_faults r steps) = rs_errs r /\ rs_srcfail (run_steps fl no_faults r steps) = false.
Proof.
  induction steps as [|s rest IH]; intros r Hs Hb Hok; [repeat split; auto|].
  rewrite run_steps_cons.
  unfold run_step. rewrite Hs, Hb. destruct s as [c|q].
  - unfold dest_cmds in *. cbn [flat_map app all_ok exec_all] in *. destruct Hok as [Hc Hrest].
    unfold do_step. cbn [no_faults ft_stop ft_dest mem_nat existsb]. rewrite !andb_false_r. cbv zeta. rewrite Hc.
    set (r1 := mkR _ _ _ _ _ _ _ _).
    assert (Hb1 : rs_budget r1 = None) by (unfold r1; cbn [rs_budget]; rewrite Hb; reflexivity).
    destruct (IH r1 eq_refl Hb1 Hrest) as (I1 & I2 & I3). repeat split; assumption.
  - unfold dest_cmds in *. cbn [flat_map app] in *. unfold do_step. cbn [no_faults ft_src mem_nat existsb].
    set (r1 := mkR _ _ _ _ _ _ _ _).
    assert (Hb1 : rs_budget r1 = None) by (unfold r1; cbn [rs_budget]; rewrite Hb; reflexivity).
    destruct (IH r1 eq_refl Hb1 Hok) as (I1 & I2 & I3). repeat split; assumption.
Qed.

Theorem async_ok_agrees_with_sync D t0 s0 steps s :
  areach (doer_exec fl) (ainit D steps) s -> a_boss s = BOk ->
  let r := run_steps fl no_faults (mkR D t0 s0 [] false 0 0 None) steps in
  a_d s = rs_d r /\ rs_errs r = [] /\ rs_srcfail r = false.
Proof.
  intros Hr Hb. destruct (async_ok_sound (doer_exec fl) D steps s Hr Hb) as (_ & Hd & He & _).
  destruct (run_steps_all_ok steps (mkR D t0 s0 [] false 0 0 None) eq_refl eq_refl (errs_all_nil_all_ok _ D He)) as (I1 & I2 & I3).
  cbv zeta. rewrite I1, Hd, run_all_exec_all. auto.
Qed.

End AsyncVsSync.

Section AsyncCovered.
Variable fl : flavour.
Notation exec := (doer_exec fl).

(* the fault plan "the doer dies after n commands": with a notice lag longer than the plan, the synchronous
   model executes exactly the first n commands of the plan (sync_stop_prefix) *)
Definition stop_plan (n lag : nat) : faults := mkFaults [] [] lag (Some n).

(* the boss has not noticed an error yet, or will not within the next n steps *)
Definition unnoticed (b : option nat) (n : nat) : Prop := b = None \/ exists k, b = Some k /\ n < k.

Lemma unnoticed_next b n lag : unnoticed b (S n) -> S n < lag ->
  let b' := match b with Some 0 => Some 0 | Some (S m) => Some m | None => None end in
  unnoticed b' n /\ unnoticed (match b' with Some _ => b' | None => Some lag end) n.
Proof.
  intros [->|(k & -> & Hk)] Hlag; [split; [left; reflexivity|right; exists lag; split; [reflexivity|lia]]|].
  destruct k as [|k']; [lia|]. split; right; exists k'; (split; [reflexivity|lia]).
Qed.

Lemma sync_stop_prefix steps : forall r n lag,
  (forall c, In c (dest_cmds steps) -> mutating c = true) ->
  rs_srcfail r = false ->
  unnoticed (rs_budget r) (length steps) -> length steps < lag ->
  rs_d (run_steps fl (stop_plan n lag) r steps) = exec_all fl (rs_d r) (firstn (n - rs_mut r) (dest_cmds steps)).
Proof.
  induction steps as [|s rest IH]; intros r n lag Hmut Hs Hbud Hlag.
  - cbn. destruct (n - rs_mut r); reflexivity.
  - rewrite run_steps_cons.
    assert (Hstep : run_step fl (stop_plan n lag) r s = do_step fl (stop_plan n lag) r s).
    { unfold run_step. rewrite Hs. destruct Hbud as [->|(k & -> & Hk)]; [reflexivity|]. destruct k; [cbn in Hk; lia|reflexivity]. }
    rewrite Hstep. cbn [length] in *. destruct (unnoticed_next _ _ lag Hbud Hlag) as [Hb1 Hb2].
    destruct s as [c|q].
    + assert (Hmc : mutating c = true) by (apply Hmut; unfold dest_cmds; cbn [flat_map app]; left; reflexivity).
      unfold dest_cmds in *. cbn [flat_map app] in *.
      unfold do_step. cbn [stop_plan ft_stop ft_dest ft_lag mem_nat existsb]. rewrite Hmc, !andb_false_r. cbn [andb]. cbv zeta.
      destruct (Nat.leb n (rs_mut r)) eqn:Estop.
      * (* stopped: nothing is executed now or later *)
        apply Nat.leb_le in Estop. replace (n - rs_mut r) with 0 by lia. cbn [firstn exec_all fst snd].
        rewrite IH; [|intros c' Hc'; apply Hmut; right; exact Hc'|reflexivity|exact Hb2|lia].
        cbn [rs_d rs_mut]. replace (n - S (rs_mut r)) with 0 by lia. reflexivity.
      * apply Nat.leb_gt in Estop. destruct (n - rs_mut r) as [|m] eqn:En; [lia|]. cbn [firstn exec_all].
        destruct (snd (doer_exec fl (rs_d r) c)) eqn:Esnd; cbn [fst snd];
          (rewrite IH; [|intros c' Hc'; apply Hmut; right; exact Hc'|reflexivity|first [exact Hb2|exact Hb1]|lia]);
          cbn [rs_d rs_mut]; replace (n - S (rs_mut r)) with m by lia; reflexivity.
    + unfold dest_cmds in *. cbn [flat_map app] in *. unfold do_step. cbn [stop_plan ft_src mem_nat existsb].
      rewrite IH; [reflexivity|exact Hmut|reflexivity|exact Hb1|lia].
Qed.

(* Whatever the two processes do, in every reachable state the doer's
   world is what the synchronous model computes for the fault plan "the doer dies after n commands" (n = the
   number of commands it executed): every theorem proved for ALL fault plans of Model/Sync.run_steps covers
   every interleaving of the asynchronous system. *)
Theorem async_covered_by_sync D t0 s0 steps s :
  (forall c, In c (dest_cmds steps) -> mutating c = true) ->
  areach exec (ainit D steps) s ->
  a_d s = rs_d (run_steps fl (stop_plan (length (a_done s)) (S (length steps))) (mkR D t0 s0 [] false 0 0 None) steps).
Proof.
  intros Hmut Hr. destruct (inv_reach exec D steps s Hr) as ([I1 _] & (rest & E & _) & _).
  rewrite (sync_stop_prefix steps (mkR D t0 s0 [] false 0 0 None) (length (a_done s)) (S (length steps)) Hmut eq_refl);
    [|left; reflexivity|lia].
  cbn [rs_d rs_mut]. rewrite Nat.sub_0_r, E, firstn_app, firstn_all, Nat.sub_diag. cbn [firstn]. rewrite app_nil_r.
  rewrite I1. apply run_all_exec_all.
Qed.

End AsyncCovered.
