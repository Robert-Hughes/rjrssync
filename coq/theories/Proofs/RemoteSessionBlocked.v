(* Remote session model, the "no step" side: what [None] of its step function says about each kind of thread while
   its socket is not broken, read off the step functions themselves; [stuck_shape] (C09) puts the six threads of a
   state with the link up together. *)
From RJ Require Import Base.Prelude Model.RemoteSession Proofs.RemoteSessionBase.

Local Open Scope nat_scope.

Definition link_up (s : st) : Prop :=
  cut (ev s) = false /\ bsock (ev s) = true /\ stdin_open (ev s) = true /\ dalive (ev s) = true.

Definition over (c : config) (ch : chan) : Prop := rxa ch = true /\ (cap c < qsum (w c) (q ch))%N /\ q ch <> [].
Definition full (c : config) (wr : list frame) : Prop := has_space c wr = false /\ wr <> [].

Lemma can_send_over c ch : can_send c ch = false -> over c ch.
Proof.
  unfold can_send, over. intros H. apply orb_false_iff in H as [H1 H2]. apply N.leb_gt in H1.
  split; [now destruct (rxa ch)|]. split; [exact H1|]. intros E. rewrite E in H1. cbn [qsum] in H1. lia.
Qed.

Lemma no_space_full c wr : has_space c wr = false -> full c wr.
Proof. intros H. split; [exact H|]. intros ->. discriminate H. Qed.

Inductive snd_blocked (c : config) (e : endpoint) (wr : list frame) : Prop :=
| sb_idle : snd_t e = SIdle -> q (outc e) = [] -> txa (outc e) = true -> snd_blocked c e wr
| sb_hold m : snd_t e = SHold m -> full c wr -> snd_blocked c e wr
| sb_ended : snd_ended (snd_t e) = true -> snd_blocked c e wr.

Lemma snd_none c e wr bad : snd_step c e wr false bad = None -> snd_blocked c e wr.
Proof.
  unfold snd_step. intros H. destruct (snd_t e) eqn:T.
  - destruct (q (outc e)) eqn:Q; [|discriminate H]. destruct (txa (outc e)) eqn:X; [|discriminate H]. now apply sb_idle.
  - destruct (has_space c wr) eqn:S; [discriminate H|]. eapply sb_hold; [exact T | now apply no_space_full].
  - apply sb_ended. rewrite T. reflexivity.
  - apply sb_ended. rewrite T. reflexivity.
Qed.

Inductive rcv_blocked (c : config) (e : endpoint) (wr : list frame) : Prop :=
| rb_idle : rcv_t e = RIdle -> wr = [] -> rcv_blocked c e wr
| rb_hold m : rcv_t e = RHold m -> over c (inc e) -> rcv_blocked c e wr
| rb_ended : rcv_ended (rcv_t e) = true -> rcv_blocked c e wr.

Lemma rcv_none c e wr : rcv_step c e wr false = None -> rcv_blocked c e wr.
Proof.
  unfold rcv_step. intros H. destruct (rcv_t e) eqn:T.
  - destruct wr as [|f t]; [now apply rb_idle|]. destruct (fgood f && (fnonce f =? rn e)%N); discriminate H.
  - destruct (can_send c (inc e)) eqn:C; [destruct (rxa (inc e)); [destruct (is_final m)|]; discriminate H|].
    eapply rb_hold; [exact T | now apply can_send_over].
  - apply rb_ended. rewrite T. reflexivity.
  - apply rb_ended. rewrite T. reflexivity.
Qed.

Inductive boss_blocked (c : config) (s : st) : Prop :=
| bb_send : (pc (bm s) = BShut \/ (pc (bm s) = BApp /\ exists id rs t, bops (bm s) = OSend id rs :: t)) ->
            over c (outc (be s)) -> boss_blocked c s
| bb_recv : (pc (bm s) = BFinal \/ (pc (bm s) = BApp /\ exists t, bops (bm s) = ORecv :: t)) ->
            q (inc (be s)) = [] -> txa (inc (be s)) = true -> boss_blocked c s
| bb_joins : pc (bm s) = BJoinS -> snd_ended (snd_t (be s)) = false -> boss_blocked c s
| bb_joinr : pc (bm s) = BJoinR -> rcv_ended (rcv_t (be s)) = false -> boss_blocked c s
| bb_wait : pc (bm s) = BWait -> dalive (ev s) = true -> boss_blocked c s
| bb_end : pc (bm s) = BEnd -> boss_blocked c s.

Lemma boss_none c s : boss_step c s = None -> boss_blocked c s.
Proof.
  unfold boss_step. intros H. destruct (pc (bm s)) eqn:P; try discriminate H.
  - destruct (bops (bm s)) as [|[id rs| |] t] eqn:O; [discriminate H| | |].
    + destruct (main_send c (be s) (MCmd id rs)) as [[e'|]|] eqn:E; try discriminate H.
      apply bb_send; [right; split; [exact P | eauto] | eapply can_send_over, main_send_none; eauto].
    + destruct (main_recv (be s)) as [[[m e']|]|] eqn:E; try discriminate H.
      destruct (main_recv_none _ E). apply bb_recv; auto. right. split; [exact P | eauto].
    + destruct (main_recv (be s)) as [[[m e']|]|]; discriminate H.
  - destruct (main_send c (be s) MShut) as [[e'|]|] eqn:E; try discriminate H.
    apply bb_send; [now left | eapply can_send_over, main_send_none; eauto].
  - destruct (main_recv (be s)) as [[[m e']|]|] eqn:E; try discriminate H.
    destruct (main_recv_none _ E). apply bb_recv; auto.
  - destruct (snd_ended (snd_t (be s))) eqn:X; [discriminate H|]. now apply bb_joins.
  - destruct (rcv_ended (rcv_t (be s))) eqn:X; [discriminate H|]. now apply bb_joinr.
  - destruct (dalive (ev s)) eqn:X; [|discriminate H]. now apply bb_wait.
  - now apply bb_end.
Qed.

Inductive doer_blocked (c : config) (s : st) : Prop :=
| db_send r rest : dp (dm s) = DLoop -> dpend (dm s) = r :: rest -> over c (outc (de s)) -> doer_blocked c s
| db_recv : dp (dm s) = DLoop -> dpend (dm s) = [] -> q (inc (de s)) = [] -> txa (inc (de s)) = true -> doer_blocked c s
| db_joins : dp (dm s) = DJoinS -> snd_ended (snd_t (de s)) = false -> doer_blocked c s
| db_joinr : dp (dm s) = DJoinR -> rcv_ended (rcv_t (de s)) = false -> doer_blocked c s
| db_final : dp (dm s) = DFinal -> snd_t (de s) = SOk -> full c (d2b s) -> doer_blocked c s.

Lemma doer_none c s : doer_step c s = None -> doer_blocked c s /\ (dp (dm s) = DFinal -> d_broken s = false).
Proof.
  unfold doer_step. intros H. destruct (dp (dm s)) eqn:P; try discriminate H; (split; [|try discriminate]).
  - destruct (dpend (dm s)) as [|r rest] eqn:D.
    + destruct (main_recv (de s)) as [[[m e']|]|] eqn:E; try discriminate H; [destruct m; discriminate H|].
      destruct (main_recv_none _ E). now apply db_recv.
    + destruct (main_send c (de s) r) as [[e'|]|] eqn:E; try discriminate H.
      eapply db_send; eauto. eapply can_send_over, main_send_none; eauto.
  - destruct (snd_ended (snd_t (de s))) eqn:X; [discriminate H|]. now apply db_joins.
  - destruct (rcv_ended (rcv_t (de s))) eqn:X; [discriminate H|]. now apply db_joinr.
  - destruct (snd_t (de s)) eqn:T; try discriminate H. destruct (d_broken s); [discriminate H|].
    destruct (has_space c (d2b s)) eqn:S; [discriminate H|]. apply db_final; auto. now apply no_space_full.
  - intros _. destruct (snd_t (de s)); try discriminate H. now destruct (d_broken s).
Qed.

(* a comms thread whose socket is broken and whose main thread waits for it can move *)
Lemma broken_snd_moves c e wr bad : snd_ended (snd_t e) = false -> (q (outc e) <> [] \/ txa (outc e) = false) ->
  exists r, snd_step c e wr true bad = Some r.
Proof.
  unfold snd_step. intros H1 H2. destruct (snd_t e); try discriminate H1; [|eauto].
  destruct (q (outc e)); [|eauto]. destruct H2 as [H2|H2]; [now elim H2|]. rewrite H2. eauto.
Qed.

Lemma broken_rcv_moves c e wr : rcv_ended (rcv_t e) = false -> (q (inc e) = [] \/ rxa (inc e) = false) ->
  exists r, rcv_step c e wr true = Some r.
Proof.
  unfold rcv_step, can_send. intros H1 H2. destruct (rcv_t e); try discriminate H1.
  - destruct wr as [|f t]; [eauto|]. destruct (fgood f && (fnonce f =? rn e)%N); eauto.
  - assert (X : (qsum (w c) (q (inc e)) <=? cap c)%N || negb (rxa (inc e)) = true).
    { destruct H2 as [-> | ->]; [apply orb_true_iff; left; apply N.leb_le; cbn [qsum]; lia | apply orb_true_r]. }
    rewrite X. destruct (rxa (inc e)); [destruct (is_final m)|]; eauto.
Qed.

Theorem stuck_shape c s : final s = false -> at_end s = false -> link_up s -> (forall s', ~ step c s s') ->
  boss_blocked c s /\ snd_blocked c (be s) (b2d s) /\ rcv_blocked c (be s) (d2b s) /\
  doer_blocked c s /\ snd_blocked c (de s) (d2b s) /\ rcv_blocked c (de s) (b2d s).
Proof.
  intros Hf He (U1 & U2 & U3 & U4) N.
  assert (Hb : b_broken s = false) by (unfold b_broken; rewrite U1, U4; reflexivity).
  assert (Hd : d_broken s = false) by (unfold d_broken; rewrite U1, U2; reflexivity).
  assert (X : forall a, next c a s = None).
  { intros a. destruct (next c a s) as [s'|] eqn:E; [|reflexivity]. exfalso. apply (N s'). now exists a. }
  pose proof (X ABoss) as X1. pose proof (X ABSnd) as X2. pose proof (X ABRcv) as X3.
  pose proof (X ADoer) as X4. pose proof (X ADSnd) as X5. pose proof (X ADRcv) as X6.
  unfold next in *. rewrite Hf, ?He, ?U4, ?Hb, ?Hd in *.
  split; [now apply boss_none|].
  split; [destruct (snd_step c (be s) (b2d s) false (bad_b2d (ev s))) as [[[? ?] ?]|] eqn:E; [discriminate X2 | eapply snd_none; eauto]|].
  split; [destruct (rcv_step c (be s) (d2b s) false) as [[? ?]|] eqn:E; [discriminate X3 | eapply rcv_none; eauto]|].
  split; [now apply doer_none|].
  split; [destruct (snd_step c (de s) (d2b s) false (bad_d2b (ev s))) as [[[? ?] ?]|] eqn:E; [discriminate X5 | eapply snd_none; eauto]|].
  destruct (rcv_step c (de s) (b2d s) false) as [[? ?]|] eqn:E; [discriminate X6 | eapply rcv_none; eauto].
Qed.
