(* The launch / deploy decision of setup_comms (Model/Launch.v): an upload only with consent, one retry of the launch
   after a deploy, a connection only to a doer that announced exactly our version. *)
From RJ Require Import Base.Prelude Model.Handshake Model.Launch Proofs.HandshakeProofs.

(* The deploy behaviour and the prompt answer permit an upload. *)
Definition consent (b : dbeh) (e : denv) : Prop :=
  b = DbOk \/ b = DbForce \/ (b = DbPrompt /\ d_answer e = AnsDeploy).

Definition refused (b : dbeh) (e : denv) : Prop :=
  b = DbError \/ (b = DbPrompt /\ d_answer e = AnsCancel).

Definition is_success (l : lres) : Prop := exists p k, l = LSuccess p k.

(* in_fin H: H is membership in a concrete list - one case per element, those whose equation cannot hold discharged.
   succ: closes is_success, port and key found by unification. *)
Ltac in_fin H := cbn in H; repeat (destruct H as [H|H]; try discriminate H); try contradiction.
Ltac succ := eexists; eexists; reflexivity.

(* Along every path through deploy_to_remote (boss_deploy.rs:20-142): nothing is launched or
   connected; the upload comes after the behaviour has been resolved to Ok, which takes consent;
   and the function returns an error unless it got as far as the upload. *)
Lemma deploy_facts b e :
  count_action ALaunch (fst (deploy b e)) = 0%nat /\ ~ In AConnect (fst (deploy b e)) /\
  (In AUpload (fst (deploy b e)) -> consent b e) /\
  ((exists m, snd (deploy b e) = Err m) \/ snd (deploy b e) = Ok tt /\ In AUpload (fst (deploy b e))).
Proof.
  (* one copy of deploy's code to walk through *)
  pose (P := fun x : list action * outcome unit =>
    count_action ALaunch (fst x) = 0%nat /\ ~ In AConnect (fst x) /\ (In AUpload (fst x) -> consent b e) /\
    ((exists m, snd x = Err m) \/ snd x = Ok tt /\ In AUpload (fst x))).
  change (P (deploy b e)).
  assert (Hearly : forall m, P ([AOsTest], Err m)).
  { intros m. repeat split; [intros H; in_fin H.. | cbn; eauto]. }
  unfold deploy.
  destruct (d_os e) as [|win avail]; [apply Hearly|]. destruct (d_staging_ok e); [|apply Hearly].
  destruct avail; [|apply Hearly]. cbn [negb].
  destruct b; [destruct (d_answer e) eqn:A| | |]; cbv [resolve_deploy];
    try (destruct (d_scp_ok e); [destruct win; [|destruct (d_chmod_ok e)]|]);
    unfold P, consent; cbn [negb fst snd app count_action Nat.add]; (split; [reflexivity|]);
    (split; [intros H; in_fin H|]); (split; [intros H; first [solve [in_fin H] | clear H; auto 6]|]);
    first [left; eexists; reflexivity | right; split; [reflexivity | cbn; auto 6]].
Qed.

Lemma deploy_no_panic b e : is_panic (snd (deploy b e)) = false.
Proof. destruct (deploy_facts b e) as (_ & _ & _ & [[m ->]|[-> _]]); reflexivity. Qed.

Lemma consent_not_refused b e : consent b e -> ~ refused b e.
Proof. intros [->|[->|[-> A]]] [B|[B A']]; congruence. Qed.

Lemma second_launch_facts l2 c2 :
  count_action ALaunch (fst (second_launch l2 c2)) = 1%nat /\
  ~ In AUpload (fst (second_launch l2 c2)) /\
  (In AConnect (fst (second_launch l2 c2)) -> is_success l2) /\
  (forall n, snd (second_launch l2 c2) = SConnected n -> n = 2%nat /\ is_success l2 /\ c2 = true) /\
  snd (second_launch l2 c2) <> SPanic /\
  (~ is_success l2 -> l2 <> LBlocked -> snd (second_launch l2 c2) = SErr).
Proof.
  destruct l2 as [p k|v| | | | |], c2; cbn [second_launch after_success fst snd count_action Nat.add];
    (split; [reflexivity|]);
    (split; [intros H; in_fin H|]);
    (split; [first [intros _; succ | intros H; in_fin H]|]);
    (split; [intros n E; first [discriminate E | inversion E; subst; repeat split; first [reflexivity | succ]]|]);
    (split; [discriminate|]);
    intros N1 N2; first [reflexivity | exfalso; apply N1; succ | exfalso; apply N2; reflexivity].
Qed.

Lemma count_action_app a x y : count_action a (x ++ y) = (count_action a x + count_action a y)%nat.
Proof. induction x as [|z x IH]; cbn [app count_action]; [reflexivity | rewrite IH; lia]. Qed.

Lemma deploy_and_retry_facts b e l2 c2 :
  (count_action ALaunch (fst (deploy_and_retry b e l2 c2)) <= 1)%nat /\
  (In AUpload (fst (deploy_and_retry b e l2 c2)) -> consent b e) /\
  (refused b e -> ~ In AUpload (fst (deploy_and_retry b e l2 c2)) /\ snd (deploy_and_retry b e l2 c2) = SErr /\
                  count_action ALaunch (fst (deploy_and_retry b e l2 c2)) = 0%nat) /\
  (In AConnect (fst (deploy_and_retry b e l2 c2)) -> is_success l2) /\
  (forall n, snd (deploy_and_retry b e l2 c2) = SConnected n ->
             n = 2%nat /\ is_success l2 /\ In AUpload (fst (deploy_and_retry b e l2 c2))) /\
  snd (deploy_and_retry b e l2 c2) <> SPanic /\
  (count_action ALaunch (fst (deploy_and_retry b e l2 c2)) = 1%nat -> ~ is_success l2 -> l2 <> LBlocked ->
     snd (deploy_and_retry b e l2 c2) = SErr).
Proof.
  unfold deploy_and_retry. destruct (deploy_facts b e) as (DL & DC & DU & DR).
  destruct (deploy b e) as [da dr]. cbn [fst snd] in *.
  pose proof (second_launch_facts l2 c2) as [S1 [S2 [S3 [S4 [S5 S6]]]]].
  destruct DR as [[m ->]|[-> DO]].
  - cbn [fst snd]. rewrite DL. split; [lia|]. split; [exact DU|]. split.
    { intros R. repeat split; auto. intros H. exact (consent_not_refused _ _ (DU H) R). }
    split; [intros H; contradiction|].
    split; [intros n E; discriminate E|]. split; [discriminate|].
    intros E. discriminate E.
  - destruct (second_launch l2 c2) as [a r]. cbn [fst snd] in *.
    rewrite count_action_app, DL, S1.
    split; [lia|]. split; [auto|]. split.
    { intros R. destruct (consent_not_refused _ _ (DU DO) R). }
    split.
    { intros H. apply in_app_or in H as [H|H]; [contradiction | auto]. }
    split.
    { intros n E. destruct (S4 n E) as [-> [Sx _]]. repeat split; auto. apply in_or_app. auto. }
    split; [exact S5|].
    intros _ N1 N2. apply S6; assumption.
Qed.

Definition needs_deploy (l : lres) : Prop := l = LNotPresent \/ exists v, l = LIncompat v.

(* The four shapes of a setup_comms run. *)
Lemma setup_cases b l1 l2 c1 c2 e :
  (b = DbForce /\ setup_comms_r b l1 l2 c1 c2 e = deploy_and_retry b e l2 c2) \/
  (b <> DbForce /\ is_success l1 /\
     setup_comms_r b l1 l2 c1 c2 e = ([ALaunch; AConnect], if c1 then SConnected 1 else SErr)) \/
  (b <> DbForce /\ needs_deploy l1 /\
     setup_comms_r b l1 l2 c1 c2 e = (ALaunch :: fst (deploy_and_retry b e l2 c2), snd (deploy_and_retry b e l2 c2))) \/
  (b <> DbForce /\ ~ is_success l1 /\ ~ needs_deploy l1 /\
     (setup_comms_r b l1 l2 c1 c2 e = ([ALaunch], SErr) \/ setup_comms_r b l1 l2 c1 c2 e = ([ALaunch], SHang))).
Proof.
  assert (NS : forall l, (forall p k, l <> LSuccess p k) -> ~ is_success l) by (intros l H [p [k E]]; eapply H; eauto).
  assert (ND : forall l, l <> LNotPresent -> (forall v, l <> LIncompat v) -> ~ needs_deploy l)
    by (intros l H1 H2 [E|[v E]]; [auto | eapply H2; eauto]).
  destruct b; [| | |left; split; reflexivity]; right; destruct l1 as [p k|v| | | | |].
  (* the launch failed for good, or blocks *)
  all: try (right; right; split; [discriminate|]; split; [apply NS; discriminate|]; split; [apply ND; discriminate|];
            first [left; reflexivity | right; reflexivity]).
  (* the doer is missing or too old *)
  all: try (right; left; split; [discriminate|]; split; [first [left; reflexivity | right; eexists; reflexivity]|];
            unfold setup_comms_r; destruct (deploy_and_retry _ e l2 c2); reflexivity).
  all: left; split; [discriminate|]; split; [succ|]; unfold setup_comms_r, after_success; destruct c1; reflexivity.
Qed.

Lemma setup_upload_consent b l1 l2 c1 c2 e :
  In AUpload (fst (setup_comms_r b l1 l2 c1 c2 e)) -> consent b e.
Proof.
  pose proof (deploy_and_retry_facts b e l2 c2) as [_ [U _]].
  destruct (setup_cases b l1 l2 c1 c2 e) as [[_ E]|[[_ [_ E]]|[[_ [_ E]]|[_ [_ [_ [E|E]]]]]]]; rewrite E; cbn [fst].
  - exact U.
  - intros H; in_fin H.
  - intros [H|H]; [discriminate H | auto].
  - intros H; in_fin H.
  - intros H; in_fin H.
Qed.

Lemma setup_refused b l1 l2 c1 c2 e :
  refused b e ->
  ~ In AUpload (fst (setup_comms_r b l1 l2 c1 c2 e)) /\
  (count_action ALaunch (fst (setup_comms_r b l1 l2 c1 c2 e)) <= 1)%nat /\
  (forall n, snd (setup_comms_r b l1 l2 c1 c2 e) = SConnected n -> n = 1%nat /\ is_success l1) /\
  (needs_deploy l1 -> snd (setup_comms_r b l1 l2 c1 c2 e) = SErr).
Proof.
  intros R. pose proof (deploy_and_retry_facts b e l2 c2) as [_ [_ [F _]]].
  destruct (F R) as [NU [RE L0]].
  assert (Hb : b <> DbForce) by (destruct R as [->|[-> _]]; discriminate).
  destruct (setup_cases b l1 l2 c1 c2 e) as [[Bf _]|[[_ [S E]]|[[_ [D E]]|[_ [NS [ND [E|E]]]]]]]; [contradiction| | | |];
    rewrite E; cbn [fst snd count_action Nat.add].
  - split; [intros H; in_fin H|]. split; [lia|]. split.
    + intros n En. destruct c1; inversion En; subst. split; [reflexivity | exact S].
    + intros D. destruct S as [p [k ->]]. destruct D as [D|[v D]]; discriminate D.
  - rewrite L0, RE. split; [intros [H|H]; [discriminate H | contradiction]|]. split; [lia|].
    split; [intros n En; discriminate En | reflexivity].
  - split; [intros H; in_fin H|]. split; [lia|]. split; [intros n En; discriminate En | reflexivity].
  - split; [intros H; in_fin H|]. split; [lia|]. split; [intros n En; discriminate En | intros D; contradiction].
Qed.

Lemma setup_retry_once b l1 l2 c1 c2 e :
  (count_action ALaunch (fst (setup_comms_r b l1 l2 c1 c2 e)) <= 2)%nat /\
  (forall n, snd (setup_comms_r b l1 l2 c1 c2 e) = SConnected n ->
     (n = 1%nat /\ is_success l1 /\ b <> DbForce /\ count_action ALaunch (fst (setup_comms_r b l1 l2 c1 c2 e)) = 1%nat) \/
     (n = 2%nat /\ is_success l2 /\ In AUpload (fst (setup_comms_r b l1 l2 c1 c2 e)))) /\
  (count_action ALaunch (fst (setup_comms_r b l1 l2 c1 c2 e)) = 2%nat -> ~ is_success l2 -> l2 <> LBlocked ->
     snd (setup_comms_r b l1 l2 c1 c2 e) = SErr) /\
  snd (setup_comms_r b l1 l2 c1 c2 e) <> SPanic.
Proof.
  pose proof (deploy_and_retry_facts b e l2 c2) as [L1 [_ [_ [_ [CN [NP SE]]]]]].
  destruct (setup_cases b l1 l2 c1 c2 e) as [[Bf E]|[[Bn [S E]]|[[Bn [D E]]|[Bn [NS [ND [E|E]]]]]]];
    rewrite E; cbn [fst snd count_action Nat.add].
  - split; [lia|]. split.
    { intros n En. destruct (CN n En) as [-> [S2 U]]. right. repeat split; auto. }
    split; [intros En; lia | exact NP].
  - split; [lia|]. split.
    { intros n En. destruct c1; inversion En; subst. left. repeat split; auto. }
    split; [intros En; discriminate En | destruct c1; discriminate].
  - split; [lia|]. split.
    { intros n En. destruct (CN n En) as [-> [S2 U]]. right. repeat split; auto. right. exact U. }
    split; [intros En N1 N2; apply SE; auto; lia | exact NP].
  - split; [lia|]. split; [intros n En; discriminate En|]. split; [intros En; discriminate En | discriminate].
  - split; [lia|]. split; [intros n En; discriminate En|]. split; [intros En; discriminate En | discriminate].
Qed.

Lemma setup_connect_needs_success b l1 l2 c1 c2 e :
  In AConnect (fst (setup_comms_r b l1 l2 c1 c2 e)) -> is_success l1 \/ is_success l2.
Proof.
  pose proof (deploy_and_retry_facts b e l2 c2) as [_ [_ [_ [C _]]]].
  destruct (setup_cases b l1 l2 c1 c2 e) as [[_ E]|[[_ [S E]]|[[_ [_ E]]|[_ [_ [_ [E|E]]]]]]]; rewrite E; cbn [fst].
  - intros H. right. auto.
  - intros _. left. exact S.
  - intros [H|H]; [discriminate H | right; auto].
  - intros H; in_fin H.
  - intros H; in_fin H.
Qed.

(* What a successful launch implies about the doer that was launched. *)
Definition matched_launch (c : hcfg) (evs : list (stream * msg)) : Prop :=
  exists p k ws, run c true evs = (LSuccess p k, ws) /\
    (exists i l, In i ws /\ nth_error evs i = Some (Stdout, MStarted l) /\ version_of c l = own_version c) /\
    Forall (started_ok c) (firstn (consumed c true hs_init evs) evs).

Lemma success_matched c evs : is_success (fst (run c true evs)) -> matched_launch c evs.
Proof.
  intros [p [k E]]. exists p, k, (snd (run c true evs)). split; [rewrite <- E; apply surjective_pairing|].
  unfold run in *. split.
  - destruct (success_needs_key _ _ _ _ _ _ _ E) as [K|K]; [cbn in K; congruence|].
    destruct (snd (run_from c true hs_init 0 evs)) as [|i ws] eqn:W; [congruence|].
    destruct (key_only_after_match c true evs hs_init 0 i) as (j & l & -> & N & V); [rewrite W; left; reflexivity|].
    exists j, l. repeat split; auto. left; reflexivity.
  - eapply success_all_started_ok. exact E.
Qed.

(* Sync traffic (a connection) only with a doer that announced exactly our version. *)
Lemma traffic_only_after_match c b evs1 evs2 c1 c2 e :
  (forall n, snd (setup_comms c b evs1 evs2 c1 c2 e) = SConnected n ->
     (n = 1%nat /\ matched_launch c evs1) \/ (n = 2%nat /\ matched_launch c evs2)) /\
  (In AConnect (fst (setup_comms c b evs1 evs2 c1 c2 e)) -> matched_launch c evs1 \/ matched_launch c evs2).
Proof.
  unfold setup_comms. split.
  - intros n E. destruct (setup_retry_once b (fst (run c true evs1)) (fst (run c true evs2)) c1 c2 e) as [_ [H _]].
    destruct (H n E) as [[-> [S _]]|[-> [S _]]]; [left|right]; split; auto using success_matched.
  - intros H. apply setup_connect_needs_success in H as [S|S]; [left|right]; apply success_matched; exact S.
Qed.

Lemma connect_both_facts src dest :
  (snd (connect_both src dest) = BothConnected ->
     (exists n, snd src = SConnected n) /\ (exists n, snd dest = SConnected n)) /\
  (snd src = SErr -> connect_both src dest = (fst src, BothExit 10)) /\
  ((exists n, snd src = SConnected n) -> snd dest = SErr -> snd (connect_both src dest) = BothExit 11).
Proof.
  unfold connect_both. destruct src as [a [n| | |]], dest as [a' [n'| | |]]; cbn; repeat split;
    try discriminate; try (eexists; reflexivity); try (intros [m E]; discriminate E); try (intros; discriminate);
    try (intros _ E; discriminate E); auto.
Qed.
