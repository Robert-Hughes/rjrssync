(* PE: the shape of the file produced by the fixed add_section_to_pe (both layouts: room for the new
   section header in the padding after the section headers, or contents moved up), the round trip
   add -> extract, and what is preserved. *)
From RJ Require Import Base.Prelude Model.LE Model.Pe Proofs.LEProofs Proofs.ExeLemmas.
Local Open Scope N_scope.

Definition pe_sig bs := fieldN bs 60 4.                      (* e_lfanew *)
Definition pe_fh bs := pe_sig bs + 4.                        (* COFF file header *)
Definition pe_n bs := fieldN bs (pe_fh bs + 2) 2.            (* NumberOfSections *)
Definition pe_soh bs := fieldN bs (pe_fh bs + 16) 2.         (* SizeOfOptionalHeader *)
Definition pe_oh bs := pe_fh bs + 20.
Definition pe_fa bs := fieldN bs (pe_oh bs + 36) 4.          (* FileAlignment *)
Definition pe_sh bs := pe_oh bs + pe_soh bs.                 (* first section header *)
Definition pe_hend bs := pe_sh bs + pe_n bs * 40.            (* end of the section headers *)
Definition pe_sec_name bs idx := read_string bs (pe_sh bs + idx * 40) 8.
Definition pe_ptr bs idx := fieldN bs (pe_sh bs + idx * 40 + 20) 4.    (* PointerToRawData *)

(* Beyond what a successful add implies: the PE header lies after the DOS header (so e_lfanew itself
   is not inside it) and the optional header is long enough to contain SizeOfImage/SizeOfHeaders. *)
Definition wf_pe (e : list byte) : Prop := 64 <= pe_sig e /\ 64 <= pe_soh e.
Definition pe_has_section (e name : list byte) : Prop :=
  exists idx, idx < pe_n e /\ pe_sec_name e idx = Ok name.
Definition pe_name_ok (name : list byte) : Prop := ~ In zero name.

Lemma validate_pe_ok m e f : validate_pe true m e = Ok f ->
  f = pe_fh e /\ 64 <= lenN e /\ pe_sig e + 4 <= lenN e /\ fieldN e (pe_sig e) 4 = 17744.
Proof.
  unfold validate_pe. intros H. invb H E1 so. invb H E2 sg. invc H C.
  apply read_field_ok in E1 as (L1 & _ & ->). apply read_field_ok in E2 as (L2 & _ & ->).
  injection H as <-. fold (pe_sig e) in *. unfold pe_fh. repeat split; lia.
Qed.

(* the range [o, o+k) avoids PointerToRawData of the n section headers at sh *)
Definition off_ptrs (sh n o k : N) : Prop :=
  forall j, j < n -> o + k <= sh + j * 40 + 20 \/ sh + j * 40 + 24 <= o.

(* Making room for one more section header when the padding after the headers is too small: zeros
   inserted at [hend], every PointerToRawData moved up by as much.  [b1] is the file so far. *)
Lemma pe_make_room m b1 sh n fa gap bs2 :
  (if gap <? 40 then bump <- align true m 18446744073709551616 40 fa ;;
                     b <- splice_ins true b1 (sh + n * 40) (zerosN bump) ;;
                     bump_ptrs true m b sh bump 0 (N.to_nat n)
   else Ok b1) = Ok bs2 ->
  exists shift, (shift = 0 \/ 40 <= shift) /\ lenN bs2 = lenN b1 + shift /\ (40 <= shift -> sh + n * 40 <= lenN b1) /\
    (forall o k, o + k <= sh + n * 40 -> off_ptrs sh n o k ->
                 subN bs2 o k = subN b1 o k) /\
    (forall o k, sh + n * 40 <= o -> subN bs2 (o + shift) k = subN b1 o k) /\
    (forall j, j < n -> fieldN bs2 (sh + j * 40 + 20) 4 = fieldN b1 (sh + j * 40 + 20) 4 + shift).
Proof.
  intros H. destruct (gap <? 40).
  - invb H Eb bump. apply align_ok in Eb as (_ & BG & _).
    invb H Es b. apply splice_ok in Es as (Ls & ->).
    apply (bump_spec m 4294967296 4 (fun j => sh + j * 40 + 20) bump
             (fun bs i c => bump_ptrs true m bs sh bump i c)) in H as (Q1 & Q2 & Q3);
      [ | reflexivity | reflexivity | lia | intros i j Hij; lia ].
    rewrite N2Nat.id in Q2, Q3. exists bump. split; [now right|]. split; [rewrite Q1; len|].
    split; [intros _; exact Ls|]. split; [|split].
    + intros o k D1 D2. rewrite Q2 by (intros j Hj; specialize (D2 j); lia). now apply subN_insN_before.
    + intros o k D. rewrite Q2 by (intros j Hj; right; lia).
      rewrite subN_insN_after by len. f_equal. len.
    + intros j Hj. rewrite Q3 by lia. f_equal. unfold fieldN. rewrite subN_insN_before by lia. reflexivity.
  - injection H as <-. exists 0. split; [now left|]. split; [lia|]. split; [lia|].
    split; [reflexivity|]. split; intros; now rewrite N.add_0_r.
Qed.

(* the header of the new section: the padded name, then VirtualSize, VirtualAddress, SizeOfRawData
   and the characteristics; PointerToRawData is written later, into the file *)
Lemma pe_new_hdr name nva nraw h : lenN name <= 8 -> nraw < 4294967296 ->
  h = updN (updN (updN (updN (name ++ zerosN (40 - lenN name)) 8 (encode_le 4 1)) 12 (encode_le 4 nva))
                 16 (encode_le 4 nraw)) 36 (encode_le 4 64) ->
  lenN h = 40 /\ subN h 0 8 = name ++ zerosN (8 - lenN name) /\ fieldN h 16 4 = nraw.
Proof.
  intros LN NR ->. set (h0 := name ++ zerosN (40 - lenN name)).
  set (h1 := updN h0 8 _). set (h2 := updN h1 12 _). set (h3 := updN h2 16 _).
  assert (L0 : lenN h0 = 40) by (unfold h0; len). assert (L1 : lenN h1 = 40) by (unfold h1; len).
  assert (L2 : lenN h2 = 40) by (unfold h2; len). assert (L3 : lenN h3 = 40) by (unfold h3; len).
  split; [len|]. split.
  - rewrite subN_updN_disj by len. unfold h3. rewrite subN_updN_disj by len.
    unfold h2. rewrite subN_updN_disj by len. unfold h1. rewrite subN_updN_disj by len. unfold h0.
    replace (40 - lenN name) with ((8 - lenN name) + 32) by lia. rewrite zerosN_split, app_assoc.
    pose proof (subN_prefix (name ++ zerosN (8 - lenN name)) (zerosN 32)) as Q.
    replace (lenN (name ++ zerosN (8 - lenN name))) with 8 in Q by len. exact Q.
  - rewrite fieldN_updN_disj by len. apply fieldN_put; len.
Qed.

(* [bs2]: the input with NumberOfSections incremented and, if needed, room made ([shift] bytes);
   [hdr4]: the new section header; [noff]: where the payload goes; [nraw]: its padded size;
   [Y], [Z]: the new SizeOfImage and SizeOfHeaders *)
Record pe_shape (e name p bs2 hdr4 Y Z : list byte) (shift nraw noff : N) : Prop := {
  ps_len64 : 64 <= lenN e;
  ps_sig : fieldN e (pe_sig e) 4 = 17744;
  ps_n16 : pe_n e + 1 < 65536;
  ps_name8 : lenN name <= 8;
  ps_len2 : lenN bs2 = lenN e + shift;
  ps_room : pe_hend e + 40 <= lenN bs2;
  ps_hend : pe_hend e <= lenN e;
  ps_low : forall o k, o + k <= pe_hend e ->
    off_ptrs (pe_sh e) (pe_n e) o k ->
    (o + k <= pe_fh e + 2 \/ pe_fh e + 4 <= o) -> subN bs2 o k = subN e o k;
  ps_n : fieldN bs2 (pe_fh e + 2) 2 = pe_n e + 1;
  ps_shift : shift = 0 \/ 40 <= shift;
  ps_high : forall o k, pe_hend e <= o -> subN bs2 (o + shift) k = subN e o k;
  ps_ptr : forall j, j < pe_n e -> fieldN bs2 (pe_sh e + j * 40 + 20) 4 = pe_ptr e j + shift;
  ps_hdr_len : lenN hdr4 = 40;
  ps_hdr_name : subN hdr4 0 8 = name ++ zerosN (8 - lenN name);
  ps_hdr_raw : fieldN hdr4 16 4 = nraw;
  ps_raw_le : lenN p <= nraw;
  ps_raw32 : nraw < 4294967296;
  ps_noff_le : lenN bs2 <= noff;
  ps_noff32 : noff < 4294967296;
  ps_Y : lenN Y = 4;
  ps_Z : lenN Z = 4 }.

Definition pe_file (e p bs2 hdr4 Y Z : list byte) (nraw noff : N) : list byte :=
  updN (updN (updN (updN bs2 (pe_hend e) hdr4 ++ zerosN (noff - lenN bs2) ++ p ++ zerosN (nraw - lenN p))
                   (pe_hend e + 20) (encode_le 4 noff)) (pe_oh e + 56) Y) (pe_oh e + 60) Z.

Lemma add_pe_shape m e name p e' : wf_pe e -> add_pe m e name p = Ok e' ->
  exists bs2 hdr4 Y Z shift nraw noff,
    pe_shape e name p bs2 hdr4 Y Z shift nraw noff /\ nraw - lenN p < pe_fa e /\
    e' = pe_file e p bs2 hdr4 Y Z nraw noff.
Proof.
  intros (WS & WO) H. unfold add_pe, add_pe_gen in H.
  invb H Hv fh. apply validate_pe_ok in Hv as (-> & L0 & Ls & Sg).
  invb H E1 n. apply read_field_ok in E1 as (L1 & _ & X1). fold (pe_n e) in X1. subst n.
  invb H E2 n1. apply uadd_ok in E2 as (-> & B2).
  invb H E3 bs1. apply write_field_inv in E3 as (L3 & -> & LL3).
  set (bs1 := updN e (pe_fh e + 2) (encode_le 2 (pe_n e + 1))) in *.
  assert (FB : forall o k, o + k <= pe_fh e + 2 \/ pe_fh e + 4 <= o -> subN bs1 o k = subN e o k)
    by (intros o k D; apply subN_updN_disj; len).
  assert (F2 : fieldN bs1 (pe_fh e + 2) 2 = pe_n e + 1) by (apply fieldN_put; lia).
  invb H E4 soh. apply read_field_ok in E4 as (L4 & _ & X4).
  unfold fieldN in X4. rewrite FB in X4 by lia. fold (fieldN e (pe_fh e + 16) 2) (pe_soh e) in X4. subst soh.
  cbv zeta in H. fold (pe_oh e) (pe_sh e) in H.
  invb H E5 sa. invb H E6 fa. clear E5. apply read_field_ok in E6 as (L6 & _ & X6).
  unfold fieldN in X6. rewrite FB in X6 by (unfold pe_oh; lia). fold (fieldN e (pe_oh e + 36) 4) (pe_fa e) in X6. subst fa.
  fold (pe_hend e) in H.
  invb H E7 al. clear E7.
  invb H E8 gap. clear E8.
  invb H E9 bs2. unfold pe_hend in E9. apply pe_make_room in E9 as (shift & SH0 & LB2 & HLc & R1 & R2 & R3).
  fold (pe_hend e) in HLc, R1, R2.
  invc H C. rewrite flen_eq in C. cbv zeta in H. rewrite !flen_eq in H.
  invb H E10 hdr1. apply write_field_inv in E10 as (_ & X10 & _).
  invb H E11 nm1. invb H E12 t. invb H E13 t2. invb H E14 pva_off. invb H E15 pva.
  invb H E16 pvs_off. invb H E17 pvs. invb H E18 s0. invb H E19 nva.
  clear E11 E12 E13 E14 E15 E16 E17 E18 E19.
  invb H E20 hdr2. apply write_field_inv in E20 as (_ & X20 & _).
  invb H E21 plen32. apply ucast_ok in E21 as (-> & _).
  invb H E22 nraw. apply align_ok in E22 as (_ & NR1 & NR2 & NR3 & NR4).
  invb H E23 hdr3. apply write_field_inv in E23 as (_ & X23 & _).
  invb H E24 hdr4. apply write_field_inv in E24 as (_ & X24 & _). subst hdr1 hdr2 hdr3.
  assert (NR : nraw < 4294967296 /\ nraw - lenN p < pe_fa e) by (clear - NR1 NR2 NR3 NR4; lia). destruct NR as (NR & PAD).
  assert (LN : lenN name <= 8) by (clear - C; lia).
  destruct (pe_new_hdr _ _ _ _ LN NR X24) as (LH4 & HN & HR).
  invb H E25 bs3. apply overwrite_ok in E25 as (L25 & ->). rewrite LH4 in L25.
  rewrite flen_eq, lenN_updN in H by (clear - L25 LH4; lia).
  invb H E26 noff. apply align_ok in E26 as (_ & NO1 & _ & NO2 & _).
  invb H E27 noff32. apply ucast_ok in E27 as (-> & B27).
  invb H E28 bs6. apply write_field_inv in E28 as (_ & -> & _).
  invb H E29 nsoi0. invb H E30 nsoi. clear E29 E30.
  invb H E31 bs7. apply write_field_inv in E31 as (_ & -> & _).
  invb H E32 nsoh. invb H E33 nsoh32. clear E32 E33.
  apply write_field_inv in H as (_ & -> & _).
  exists bs2, hdr4, (encode_le 4 nsoi), (encode_le 4 nsoh32), shift, nraw, noff.
  assert (lenN bs2 = lenN e + shift) by (clear - LB2 LL3; lia).
  assert (pe_hend e <= lenN e) by (clear - SH0 HLc L25 LB2 LL3; lia).
  split; [|split; [exact PAD|]].
  - constructor; try assumption; try apply lenN_encode.
    + intros o k D1 D2 D3. rewrite R1, FB by assumption. reflexivity.
    + clear - R1 F2 WO. unfold fieldN. rewrite R1 by (try (intros j Hj); unfold pe_hend, pe_sh, pe_oh; lia). exact F2.
    + clear - R2 FB. intros o k D. rewrite R2, FB by (try assumption; unfold pe_hend, pe_sh, pe_oh in D; lia). reflexivity.
    + clear - R3 FB. intros j Hj. rewrite R3 by exact Hj. unfold pe_ptr, fieldN. rewrite FB by (unfold pe_sh, pe_oh; lia). reflexivity.
  - unfold pe_file. rewrite (resizeN_grow (updN _ _ _)), (resizeN_grow p), lenN_updN by (rewrite ?lenN_updN; clear - NO1 NR1 L25 LH4; lia).
    now rewrite <- !app_assoc.
Qed.

(* [b] with the 40 bytes [h] written at [hd] and [tl] appended, then patched with [x] inside [h]
   at hd + 20 and with [Y], [Z] side by side below [hd]: the form of pe_file *)
Section Patched.
Variables (b h tl x Y Z : list byte) (hd c1 c2 : N).
Hypotheses (LH : lenN h = 40) (LX : lenN x = 4) (LY : lenN Y = 4) (LZ : lenN Z = 4)
           (C12 : c2 = c1 + 4) (CH : c2 + 4 <= hd) (HB : hd + 40 <= lenN b).
Let f := updN (updN (updN (updN b hd h ++ tl) (hd + 20) x) c1 Y) c2 Z.
Let Q1 := updN b hd h.
Let Q2 := updN Q1 (hd + 20) x.
Let Q3 := updN Q2 c1 Y.
Let Q := updN Q3 c2 Z.

Local Lemma LQ1 : lenN Q1 = lenN b. Proof. unfold Q1. len. Qed.
Local Lemma LQ2 : lenN Q2 = lenN b. Proof. unfold Q2. rewrite lenN_updN; rewrite LQ1; lia. Qed.
Local Lemma LQ3 : lenN Q3 = lenN b. Proof. unfold Q3. rewrite lenN_updN; rewrite LQ2; lia. Qed.
Lemma pat_lenQ : lenN Q = lenN b. Proof. unfold Q. rewrite lenN_updN; rewrite LQ3; lia. Qed.

Lemma pat_nf : f = Q ++ tl.
Proof.
  unfold f, Q, Q3, Q2. fold Q1. rewrite (updN_app_l Q1) by (rewrite LQ1; lia). fold Q2.
  rewrite (updN_app_l Q2) by (rewrite LQ2; lia). fold Q3. now rewrite (updN_app_l Q3) by (rewrite LQ3; lia).
Qed.

Lemma pat_len : lenN f = lenN b + lenN tl.
Proof. rewrite pat_nf, lenN_app, pat_lenQ. reflexivity. Qed.

Lemma pat_tl : dropN (lenN b) f = tl.
Proof. rewrite pat_nf, <- pat_lenQ. apply dropN_app_exact. Qed.

(* reads that avoid x, Y and Z see Q1 *)
Local Lemma pat_q1 o k : o + k <= lenN b -> o + k <= hd + 20 \/ hd + 24 <= o -> o + k <= c1 \/ c1 + 8 <= o ->
  subN f o k = subN Q1 o k.
Proof.
  intros. rewrite pat_nf, subN_app_l by (rewrite pat_lenQ; lia). unfold Q.
  rewrite subN_updN_disj by (rewrite ?LQ3; lia). unfold Q3. rewrite subN_updN_disj by (rewrite ?LQ2; lia).
  unfold Q2. now rewrite subN_updN_disj by (rewrite ?LQ1; lia).
Qed.

Lemma pat_low o k : o + k <= hd -> o + k <= c1 \/ c1 + 8 <= o -> subN f o k = subN b o k.
Proof. intros. rewrite pat_q1 by lia. apply subN_updN_disj; lia. Qed.

Lemma pat_hdr o k : o + k <= 20 -> subN f (hd + o) k = subN h o k.
Proof. intros. rewrite pat_q1 by lia. apply subN_updN_inside; lia. Qed.

Lemma pat_high o k : hd + 40 <= o -> o + k <= lenN b -> subN f o k = subN b o k.
Proof. intros. rewrite pat_q1 by lia. apply subN_updN_disj; lia. Qed.

Lemma pat_x sz v : x = encode_le sz v -> v < 256 ^ N.of_nat sz -> fieldN f (hd + 20) sz = v.
Proof.
  intros E V. unfold fieldN. rewrite <- (lenN_encode sz v), <- E.
  rewrite pat_nf, subN_app_l by (rewrite pat_lenQ; lia). unfold Q.
  rewrite subN_updN_disj by (rewrite ?LQ3; lia). unfold Q3. rewrite subN_updN_disj by (rewrite ?LQ2; lia).
  unfold Q2. rewrite subN_updN_same, E by (rewrite ?LQ1; lia). now apply decode_encode_small.
Qed.
End Patched.

(* [f] has section headers 0..n at [sh]; the name of no header below n is [name], the name of header n
   is, and header n points at [p]. *)
Section PeRun.
Variables (m : mode) (f name p : list byte) (sh n : N).
Hypothesis LF : sh + n * 40 + 40 <= lenN f.
Hypothesis B64 : lenN f < 18446744073709551616.
Hypothesis OLD : forall j, j < n -> exists s, read_string f (sh + j * 40) 8 = Ok s /\ s <> name.
Hypothesis NEW : read_string f (sh + n * 40) 8 = Ok name.
Hypothesis OFF : fieldN f (sh + n * 40 + 20) 4 <= lenN f.
Hypothesis GET : subN f (fieldN f (sh + n * 40 + 20) 4) (fieldN f (sh + n * 40 + 16) 4) = p.

Lemma pe_loop_last : forall i, i <= n -> extract_pe_loop true m f name sh i (N.to_nat (n + 1 - i)) = Ok p.
Proof.
  apply N_down_ind.
  - replace (N.to_nat (n + 1 - n)) with 1%nat by lia. cbn [extract_pe_loop]. cbv zeta.
    rewrite NEW. cbn [obind]. rewrite str_eqb_refl.
    rewrite read_field_eq by lia. cbn [obind]. rewrite read_field_eq by lia. cbn [obind].
    rewrite split_trunc_eq by exact OFF. now rewrite GET.
  - intros i Hi IH. replace (N.to_nat (n + 1 - i)) with (S (N.to_nat (n + 1 - (i + 1)))) by lia.
    cbn [extract_pe_loop]. cbv zeta. destruct (OLD i Hi) as (s & -> & Hne). cbn [obind].
    rewrite (proj2 (str_eqb_neq s name) Hne). exact IH.
Qed.

Variables (sig soh : N).
Hypothesis SH : sh = sig + 4 + 20 + soh.
Hypothesis L64 : 64 <= lenN f.
Hypothesis H60 : fieldN f 60 4 = sig.
Hypothesis SIG : fieldN f sig 4 = 17744.
Hypothesis HN : fieldN f (sig + 4 + 2) 2 = n + 1.
Hypothesis HS : fieldN f (sig + 4 + 16) 2 = soh.

Lemma extract_pe_last : extract_pe m f name = Ok p.
Proof.
  unfold extract_pe, extract_pe_gen, validate_pe.
  rewrite read_field_eq, H60 by lia. cbn [obind]. rewrite read_field_eq, SIG by lia. cbn [obind].
  rewrite N.eqb_refl. cbn [obind negb].
  rewrite read_field_eq, HN by lia. cbn [obind]. rewrite read_field_eq, HS by lia. cbn [obind]. cbv zeta.
  rewrite <- SH. replace (N.to_nat (n + 1)) with (N.to_nat (n + 1 - 0)) by (f_equal; lia).
  apply pe_loop_last. lia.
Qed.
End PeRun.

(* What add_section_to_pe keeps of the old file, over e_lfanew, NumberOfSections and
   SizeOfOptionalHeader of e; [shift] is by how much the contents moved. *)
Definition pe_kept (e e' : list byte) (sig n soh shift : N) : Prop :=
  let fh := sig + 4 in let oh := fh + 20 in let sh := oh + soh in let hend := sh + n * 40 in
  (* every old section header is kept, except that PointerToRawData moves with the contents *)
  (forall j, j < n -> fieldN e' (sh + j * 40 + 20) 4 = fieldN e (sh + j * 40 + 20) 4 + shift) /\
  (forall j x k, j < n -> x + k <= 20 \/ (24 <= x /\ x + k <= 40) -> subN e' (sh + j * 40 + x) k = subN e (sh + j * 40 + x) k) /\
  (forall o k, hend + (if shift =? 0 then 40 else 0) <= o -> o + k <= lenN e -> subN e' (o + shift) k = subN e o k) /\
  (* the rest of the headers: everything below the section headers except NumberOfSections, SizeOfImage, SizeOfHeaders *)
  (forall o k, o + k <= sh -> (o + k <= fh + 2 \/ fh + 4 <= o) -> (o + k <= oh + 56 \/ oh + 64 <= o) -> subN e' o k = subN e o k) /\
  fieldN e' (fh + 2) 2 = n + 1.

(* The file of pe_file over numbers that are variables: [sig n soh] stand for e_lfanew,
   NumberOfSections and SizeOfOptionalHeader of [e].  The hypotheses come in the order in which
   the lemmas need them. *)
Section PeOut.
Variables (e name p bs2 hdr4 Y Z : list byte) (sig n soh shift nraw noff : N).
Let fh := sig + 4.
Let oh := fh + 20.
Let sh := oh + soh.
Let hend := sh + n * 40.
Let Zp := zerosN (nraw - lenN p).
Let tl := zerosN (noff - lenN bs2) ++ p ++ Zp.
Let Xn := encode_le 4 noff.
Let e' := updN (updN (updN (updN bs2 hend hdr4 ++ tl) (hend + 20) Xn) (oh + 56) Y) (oh + 60) Z.

Hypothesis WO : 64 <= soh.
Hypothesis HE : hend + 40 <= lenN bs2.
Hypothesis LH4 : lenN hdr4 = 40.
Hypothesis LY : lenN Y = 4.
Hypothesis LZ : lenN Z = 4.

(* e' is an instance of Section Patched *)
Local Lemma LXn : lenN Xn = 4. Proof. apply lenN_encode. Qed.
Local Lemma C12 : oh + 60 = oh + 56 + 4. Proof. lia. Qed.
Local Lemma CH : oh + 60 + 4 <= hend. Proof. lia. Qed.

Local Lemma low_sub o k : o + k <= hend -> (o + k <= oh + 56 \/ oh + 64 <= o) -> subN e' o k = subN bs2 o k.
Proof. intros. apply (pat_low _ _ _ _ _ _ _ _ _ LH4 LXn LY LZ C12 CH HE); lia. Qed.

Local Lemma newhdr_sub x k : x + k <= 20 -> subN e' (hend + x) k = subN hdr4 x k.
Proof. apply (pat_hdr _ _ _ _ _ _ _ _ _ LH4 LXn LY LZ C12 CH HE). Qed.

Local Lemma high_sub o k : hend + 40 <= o -> o + k <= lenN bs2 -> subN e' o k = subN bs2 o k.
Proof. apply (pat_high _ _ _ _ _ _ _ _ _ LH4 LXn LY LZ C12 CH HE). Qed.

Local Lemma f_ptr : noff < 4294967296 -> fieldN e' (hend + 20) 4 = noff.
Proof. intros H. apply (pat_x _ _ _ _ _ _ _ _ _ LH4 LXn LY LZ C12 CH HE); [reflexivity | lia]. Qed.

Hypothesis NO1 : lenN bs2 <= noff.
Hypothesis NR1 : lenN p <= nraw.

Local Lemma Le' : lenN e' = noff + nraw.
Proof. unfold e'. rewrite (pat_len _ _ _ _ _ _ _ _ _ LH4 LXn LY LZ C12 CH HE). unfold tl, Zp. len. Qed.

Local Lemma D_p : dropN noff e' = p ++ Zp.
Proof.
  apply (dropN_step _ _ _ _ _ (pat_tl _ _ _ _ _ _ _ _ _ LH4 LXn LY LZ C12 CH HE)). len.
Qed.

Local Lemma payload : subN e' noff nraw = p ++ Zp.
Proof. unfold subN. rewrite D_p. apply takeN_all. unfold Zp. len. Qed.

(* reads below the new header, away from SizeOfImage/SizeOfHeaders: as in e, but for the fields add_pe changed *)
Hypothesis S5 : forall o k, o + k <= hend -> off_ptrs sh n o k ->
                 (o + k <= fh + 2 \/ fh + 4 <= o) -> subN bs2 o k = subN e o k.

Local Lemma hdr_sub o k : o + k <= hend -> off_ptrs sh n o k ->
  (o + k <= fh + 2 \/ fh + 4 <= o) -> (o + k <= oh + 56 \/ oh + 64 <= o) -> subN e' o k = subN e o k.
Proof. intros D1 D2 D3 D4. rewrite low_sub by lia. now apply S5. Qed.

(* a field of the headers other than NumberOfSections, SizeOfImage, SizeOfHeaders *)
Local Lemma f_hdr o sz : o + N.of_nat sz <= fh + 2 \/ fh + 4 <= o /\ o + N.of_nat sz <= oh + 56 ->
  fieldN e' o sz = fieldN e o sz.
Proof. intros H. unfold fieldN. f_equal. apply hdr_sub; unfold off_ptrs; lia. Qed.

Lemma out_sections :
  fieldN bs2 (fh + 2) 2 = n + 1 -> (shift = 0 \/ 40 <= shift) -> lenN bs2 = lenN e + shift ->
  (forall o k, hend <= o -> subN bs2 (o + shift) k = subN e o k) ->
  (forall j, j < n -> fieldN bs2 (sh + j * 40 + 20) 4 = fieldN e (sh + j * 40 + 20) 4 + shift) ->
  pe_kept e e' sig n soh shift.
Proof.
  intros S6 SHIFT LB2 S7 S8. unfold pe_kept. cbv zeta. fold fh oh sh hend.
  split; [|split; [|split; [|split]]].
  - intros j Hj. rewrite <- S8 by exact Hj. unfold fieldN. now rewrite low_sub by lia.
  - intros j x k Hj Hx. apply hdr_sub; unfold off_ptrs; lia.
  - intros o k G1 G2. rewrite <- S7 by (destruct (shift =? 0); lia).
    apply high_sub; destruct (N.eqb_spec shift 0); lia.
  - intros o k G1 G2 G3. apply hdr_sub; unfold off_ptrs; lia.
  - rewrite <- S6. unfold fieldN. now rewrite low_sub by lia.
Qed.

Hypothesis HL : hend <= lenN e.

(* an old name is read the same in e and in e' *)
Local Lemma old_name j : j < n ->
  exists s, read_string e (sh + j * 40) 8 = Ok s /\ read_string e' (sh + j * 40) 8 = Ok s.
Proof.
  intros Hj. destruct (read_string_prefix (subN e (sh + j * 40) 8) 8) as [s Hs].
  { right. rewrite lenN_subN; lia. }
  assert (Q : 8 = sh + j * 40 + 8 - (sh + j * 40)) by lia.
  exists s. split.
  - apply (Hs _ _ (dropN (sh + j * 40 + 8) e)). rewrite Q at 1. apply dropN_split. lia.
  - apply (Hs _ _ (dropN (sh + j * 40 + 8) e')).
    rewrite <- (hdr_sub (sh + j * 40) 8) by (unfold off_ptrs; lia). rewrite Q at 1. apply dropN_split. lia.
Qed.

Local Lemma new_name : subN hdr4 0 8 = name ++ zerosN (8 - lenN name) -> ~ In zero name -> lenN name <= 8 ->
  read_string e' hend 8 = Ok name.
Proof.
  intros HN NOK LN. pose proof Le'.
  eapply (read_string_name _ _ _ _ (zerosN (8 - lenN name) ++ dropN (hend + 8) e'));
    [lia | | exact NOK | unfold lenN in LN; lia | ].
  - rewrite app_assoc, <- HN, <- (newhdr_sub 0 8), N.add_0_r by lia.
    replace 8 with (hend + 8 - hend) at 1 by lia. apply dropN_split. lia.
  - destruct (N.eq_dec (lenN name) 8) as [E8|N8]; [left; unfold lenN in E8; lia | right].
    replace (8 - lenN name) with (1 + (7 - lenN name)) by lia. rewrite zerosN_split. eexists. reflexivity.
Qed.

Variable m' : mode.
Hypothesis NOSEC : ~ exists j, j < n /\ read_string e (sh + j * 40) 8 = Ok name.
Hypothesis NOK : ~ In zero name.
Hypothesis LN : lenN name <= 8.
Hypothesis HNm : subN hdr4 0 8 = name ++ zerosN (8 - lenN name).
Hypothesis HR : fieldN hdr4 16 4 = nraw.
Hypothesis NR3 : nraw < 4294967296.
Hypothesis NO2 : noff < 4294967296.
Hypothesis WS : 64 <= sig.
Hypothesis L0 : 64 <= lenN e.
Hypothesis H60 : fieldN e 60 4 = sig.
Hypothesis SG : fieldN e sig 4 = 17744.
Hypothesis HS : fieldN e (fh + 16) 2 = soh.
Hypothesis S6 : fieldN bs2 (fh + 2) 2 = n + 1.

Lemma out_roundtrip : extract_pe m' e' name = Ok (p ++ zerosN (nraw - lenN p)).
Proof.
  pose proof Le' as Le.
  assert (LF : sh + n * 40 + 40 <= lenN e') by lia.
  assert (B64 : lenN e' < 18446744073709551616) by lia.
  apply (extract_pe_last m' e' name (p ++ Zp) sh n LF B64) with (sig := sig) (soh := soh).
  - intros j Hj. destruct (old_name j Hj) as (s & S1 & S2). exists s. split; [exact S2|].
    intros ->. apply NOSEC. exists j. now split.
  - fold hend. now apply new_name.
  - fold hend. rewrite f_ptr by exact NO2. lia.
  - fold hend. rewrite f_ptr by exact NO2. unfold fieldN at 1. rewrite newhdr_sub by lia. fold (fieldN hdr4 16 4).
    rewrite HR. exact payload.
  - reflexivity.
  - lia.
  - rewrite f_hdr by lia. exact H60.
  - rewrite f_hdr by lia. exact SG.
  - rewrite <- S6. unfold fieldN. f_equal. apply low_sub; lia.
  - rewrite f_hdr by lia. exact HS.
Qed.
End PeOut.

Lemma pe_roundtrip m m' e name p e' :
  wf_pe e -> ~ pe_has_section e name -> pe_name_ok name ->
  add_pe m e name p = Ok e' ->
  exists pad, extract_pe m' e' name = Ok (p ++ zerosN pad) /\ pad < pe_fa e.
Proof.
  intros W NS NK H.
  destruct (add_pe_shape m e name p e' W H) as (bs2 & hdr4 & Y & Z & shift & nraw & noff & [] & PAD & ->).
  exists (nraw - lenN p). split; [|exact PAD].
  destruct W as (WS & WO). unfold pe_hend, pe_sh, pe_oh, pe_fh in *.
  apply (out_roundtrip e name p bs2 hdr4 Y Z (pe_sig e) (pe_n e) (pe_soh e) nraw noff); trivial.
Qed.

Lemma pe_sections m e name p e' :
  wf_pe e -> add_pe m e name p = Ok e' ->
  exists shift, (shift = 0 \/ 40 <= shift) /\ pe_kept e e' (pe_sig e) (pe_n e) (pe_soh e) shift.
Proof.
  intros W H.
  destruct (add_pe_shape m e name p e' W H) as (bs2 & hdr4 & Y & Z & shift & nraw & noff & [] & _ & ->).
  exists shift. split; [assumption|].
  destruct W as (WS & WO). unfold pe_hend, pe_sh, pe_oh, pe_fh in *.
  apply (out_sections e p bs2 hdr4 Y Z (pe_sig e) (pe_n e) (pe_soh e) shift nraw noff); trivial.
Qed.
