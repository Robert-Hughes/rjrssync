(* The name under which a file or symlink source is placed inside a trailing-slash destination (Model/RootName.v). *)
From RJ Require Import Base.Prelude Model.RootName.
From Coq Require Import String.
Local Open Scope char_scope.

Lemma last_piece_spec : forall win s acc,
  Forall (fun c => is_sep win c = false) acc ->
  Forall (fun c => is_sep win c = false) (last_piece win s acc) /\
  exists pre, acc ++ s = pre ++ last_piece win s acc /\
              ((pre = [] /\ last_piece win s acc = acc ++ s) \/ exists p c, pre = p ++ [c] /\ is_sep win c = true).
Proof.
  intros win s. induction s as [|c r IH]; intros acc Hacc; cbn [last_piece].
  - split; [exact Hacc|]. exists []. rewrite app_nil_r. split; [reflexivity|]. left. split; reflexivity.
  - destruct (is_sep win c) eqn:Hc.
    + destruct (IH [] (Forall_nil _)) as [Hf [pre [Heq Hpre]]]. split; [exact Hf|].
      exists (acc ++ [c] ++ pre). cbn [app] in Heq. split; [rewrite <- !app_assoc; cbn [app]; do 2 f_equal; exact Heq|].
      right. destruct Hpre as [[Hp _]|[p [c' [Hp Hc']]]].
      * subst pre. exists acc, c. rewrite app_nil_r. split; [reflexivity|exact Hc].
      * subst pre. exists (acc ++ c :: p), c'. rewrite <- app_assoc. cbn [app]. split; [reflexivity|exact Hc'].
    + assert (Hacc' : Forall (fun c0 => is_sep win c0 = false) (acc ++ [c])).
      { apply Forall_app. split; [exact Hacc|]. constructor; [exact Hc|constructor]. }
      destruct (IH (acc ++ [c]) Hacc') as [Hf [pre [Heq Hpre]]]. split; [exact Hf|].
      exists pre. rewrite <- app_assoc in Heq. cbn [app] in Heq. split; [exact Heq|].
      destruct Hpre as [[Hp Hl]|Hr]; [left|right; exact Hr].
      split; [exact Hp|]. rewrite Hl, <- app_assoc. reflexivity.
Qed.

(* the name contains no separator of the source platform ... *)
Theorem src_file_name_no_sep : forall win src, Forall (fun c => is_sep win c = false) (src_file_name win src).
Proof. intros. apply (last_piece_spec win src []). constructor. Qed.

(* ... and is the text after the last separator of the source path (the whole path when it has none) *)
Theorem src_file_name_suffix : forall win src,
  exists pre, src = pre ++ src_file_name win src /\
              (pre = [] \/ exists p c, pre = p ++ [c] /\ is_sep win c = true).
Proof.
  intros win src. destruct (last_piece_spec win src [] (Forall_nil _)) as [_ [pre [Heq Hpre]]].
  exists pre. split; [exact Heq|]. destruct Hpre as [[Hp _]|Hr]; [left; exact Hp|right; exact Hr].
Qed.

(* On a Unix source the name is the POSIX last component: a backslash is part of it. *)
Theorem unix_name_is_basename : forall src, src_file_name false src = posix_basename src.
Proof. reflexivity. Qed.

Lemma is_sep_false_slash : forall c, is_sep false c = false -> c <> "/".
Proof. intros c H E. subst c. discriminate H. Qed.

(* Hence the rewritten destination root is DEST ++ one component: no '/' is added after the dest text, so the root
   stays a direct child of the folder the user named (for a name that is not "", "." or ".." - which the last
   component of a path that names a file or a symlink never is). *)
Theorem C01_inside_root_is_child : forall src dest,
  exists name, inside_root false src dest = dest ++ name /\ name = posix_basename src /\ Forall (fun c => c <> "/") name.
Proof.
  intros src dest. exists (src_file_name false src). split; [reflexivity|]. split; [reflexivity|].
  eapply Forall_impl; [|apply src_file_name_no_sep]. intros c H. apply is_sep_false_slash. exact H.
Qed.

(* A Windows source: both separators split, as in the code before the F14 fix. *)
Theorem windows_name_unchanged : forall src, src_file_name true src = src_file_name_old src.
Proof. reflexivity. Qed.

(* For a source path without a backslash the F14 fix makes no difference. *)
Lemma last_piece_same : forall s acc, Forall (fun c => c <> "\") s -> last_piece false s acc = last_piece true s acc.
Proof.
  induction s as [|c r IH]; intros acc H; cbn [last_piece]; [reflexivity|].
  inversion H as [|c' r' Hc Hr]; subst.
  assert (E : is_sep false c = is_sep true c).
  { unfold is_sep. destruct (Ascii.eqb c "/"); [reflexivity|]. cbn. destruct (Ascii.eqb_spec c "\"); [contradiction|reflexivity]. }
  rewrite E. destruct (is_sep true c); apply IH; exact Hr.
Qed.
Theorem no_backslash_name_unchanged : forall src, Forall (fun c => c <> "\") src -> src_file_name false src = src_file_name_old src.
Proof. intros. apply last_piece_same. assumption. Qed.

(* F14, the code before the fix: a Unix file called  x\..  was placed at DEST/.. - the PARENT of the destination folder -
   and a file called a\b at DEST/b. *)
Definition s_of (s : string) : str := list_ascii_of_string s.
Theorem F14_old_name_escapes :
  exists src dest, posix_basename src = s_of "x\.." /\ inside_root_old src dest = s_of "box/dest/.." /\
                   inside_root false src dest = s_of "box/dest/x\..".
Proof. exists (s_of "s/x\.."), (s_of "box/dest/"). vm_compute. repeat split; reflexivity. Qed.
Theorem F14_old_name_wrong :
  exists src dest, inside_root_old src dest = s_of "d/b" /\ inside_root false src dest = s_of "d/a\b".
Proof. exists (s_of "s/a\b"), (s_of "d/"). vm_compute. split; reflexivity. Qed.

Example src_file_name_examples :
  src_file_name false (s_of "dir/sub/file.txt") = s_of "file.txt" /\ src_file_name false (s_of "plain") = s_of "plain" /\
  src_file_name true (s_of "C:\dir\f.txt") = s_of "f.txt" /\ src_file_name true (s_of "C:\dir/f.txt") = s_of "f.txt".
Proof. vm_compute. repeat split; reflexivity. Qed.
