(* C04: once the destination mirrors the source, the same sync plans nothing and sends no change. *)
From RJ Require Import Base.Prelude Base.OrderedPlan Model.Settings Model.Core Model.Fs Model.Sync
  Spec.PlanSpec Spec.Mirror Proofs.PlanCProofs Proofs.FsProofs Proofs.SyncProofs Proofs.PathLemmas Proofs.MirrorProofs.

Section Idem.
Variable now_z : N -> Z.
Variable incl : path -> bool.
Variable normalize : str -> target.
Variable chunker : str -> list str.
Variable diff : bool.
Variable fl : flavour.

Notation entry_of := (entry_of now_z normalize).
Notation valid_listing := (valid_listing now_z incl normalize).
Notation side_listing := (side_listing now_z normalize).
Notation takes_part := (takes_part incl).
Notation mirror := (mirror now_z incl normalize diff fl).
Notation mirror_at := (mirror_at now_z normalize diff fl).

Lemma mirror_at_some S D D' p : mirror_at S D D' p -> fget S p <> None -> fget D' p <> None.
Proof.
  unfold Mirror.mirror_at. destruct (fget S p) as [[m b| |t k]|]; intros H Hne; try congruence.
  - destruct H as [->|(b0 & m0 & E & _ & ->)]; congruence.
  - destruct H as (t' & k' & -> & _). discriminate.
Qed.

Lemma mirror_at_folder S D D' p : mirror_at S D D' p -> fget S p <> None -> (fget S p = Some NFolder <-> fget D' p = Some NFolder).
Proof.
  unfold Mirror.mirror_at. destruct (fget S p) as [[m b| |t k]|]; intros H Hne; try congruence.
  - split; [discriminate|]. destruct H as [->|(b0 & m0 & E & _ & ->)]; [discriminate|rewrite E; discriminate].
  - tauto.
  - split; [discriminate|]. destruct H as (t' & k' & -> & _). discriminate.
Qed.

Lemma mirror_at_in_sync S D D' p ns nd :
  mirror_at S D D' p -> fget S p = Some ns -> fget D' p = Some nd ->
  needs_delete diff (entry_of ns) (entry_of nd) = false /\ needs_copy true (entry_of ns) (entry_of nd) = None.
Proof.
  unfold Mirror.mirror_at. intros H ES ED. rewrite ES in H. destruct ns as [m b| |t k].
  - assert (exists m' b', nd = NFile m' b' /\ stamp_z now_z m' = stamp_z now_z m) as (m' & b' & -> & Em).
    { destruct H as [H|(b0 & m0 & E & Em & H)]; [rewrite H in ED; inversion ED; eauto|].
      rewrite H, E in ED. inversion ED; subst. eauto. }
    cbn [Fs.entry_of needs_delete needs_copy]. rewrite Em, Z.compare_refl. auto.
  - rewrite H in ED. inversion ED; subst. auto.
  - destruct H as (t' & k' & E & Et & Ek). rewrite E in ED. inversion ED; subst.
    cbn [Fs.entry_of needs_delete needs_copy]. rewrite Et.
    rewrite target_eqb_refl. cbn [negb]. split; [|reflexivity].
    destruct Ek as [ -> | -> ]; [rewrite andb_false_r; reflexivity|].
    rewrite (proj2 (skind_eqb_eq k k) eq_refl). reflexivity.
Qed.

Lemma mirror_src S D D' : mirror S D D' -> forall q, takes_part S q /\ fget S q <> None -> mirror_at S D D' q.
Proof. intros HM q Hq. apply (proj1 (HM q)). left. exact Hq. Qed.

Lemma transfer_A S D D' : mirror S D D' -> forall p,
  takes_part S p /\ fget S p <> None -> takes_part D' p /\ fget D' p <> None.
Proof.
  intros HM p [Ht Hne].
  pose proof (mirror_src S D D' HM) as Hm.
  split; [|eapply mirror_at_some; eauto].
  destruct Ht as [->|[Hr Hv]]; [left; reflexivity|]. right.
  assert (HrD : fget D' [] = Some NFolder).
  { apply (mirror_at_folder S D D' []); [apply Hm; split; [left; reflexivity|congruence] | congruence | exact Hr]. }
  split; [exact HrD|].
  apply visible_iff in Hv as (Hp & Hi & Hq). apply visible_iff. split; [exact Hp|]. split; [exact Hi|].
  intros q Hq1 Hq2. destruct (Hq q Hq1 Hq2) as [Hiq Hfq]. split; [exact Hiq|].
  apply (mirror_at_folder S D D' q); [|congruence|exact Hfq].
  apply Hm. split; [|congruence]. right. split; [exact Hr|].
  apply visible_iff. split; [exact Hq1|]. split; [exact Hiq|].
  intros q' Hq'1 Hq'2. apply Hq; [exact Hq'1|]. eapply strict_prefix_trans; eauto.
Qed.

Lemma transfer_B S D D' : mirror S D D' -> wf_fs D -> fget S [] <> None -> forall n p, length p = n ->
  takes_part D' p /\ fget D' p <> None -> takes_part S p /\ fget S p <> None.
Proof.
  intros HM HwD Hroot.
  pose proof (mirror_src S D D' HM) as Hm.
  induction n as [n IH] using lt_wf_ind. intros p Hlen [Ht Hne].
  destruct Ht as [->|[HrD Hv]]; [split; [left; reflexivity|exact Hroot]|].
  apply visible_iff in Hv as (Hp & Hi & Hq).
  (* every non-root strict prefix of p takes part in S and is a folder there *)
  assert (Hpre : forall q, q <> [] -> is_strict_prefix q p = true -> takes_part S q /\ fget S q = Some NFolder).
  { intros q Hq1 Hq2. destruct (Hq q Hq1 Hq2) as [Hiq HfD].
    assert (Hlt : length q < n).
    { apply strict_prefix_iff in Hq2 as (k & Hk & ->). rewrite firstn_length. lia. }
    assert (HtD : takes_part D' q /\ fget D' q <> None).
    { split; [|congruence]. right. split; [exact HrD|]. apply visible_iff. split; [exact Hq1|]. split; [exact Hiq|].
      intros q' Hq'1 Hq'2. apply Hq; [exact Hq'1|]. eapply strict_prefix_trans; eauto. }
    destruct (IH (length q) Hlt q eq_refl HtD) as [HtS HneS]. split; [exact HtS|].
    apply (mirror_at_folder S D D' q); [apply Hm; auto|exact HneS|exact HfD]. }
  assert (HrS : fget S [] = Some NFolder).
  { destruct (IH 0 ltac:(destruct p; [congruence|cbn in Hlen; lia]) [] eq_refl) as [_ HneS]; [split; [left; reflexivity|congruence]|].
    apply (mirror_at_folder S D D' []); [apply Hm; split; [left; reflexivity|exact HneS]|exact HneS|exact HrD]. }
  assert (HtS : takes_part S p).
  { right. split; [exact HrS|]. apply visible_iff. split; [exact Hp|]. split; [exact Hi|].
    intros q Hq1 Hq2. destruct (Hq q Hq1 Hq2) as [Hiq _]. split; [exact Hiq|]. apply Hpre; assumption. }
  split; [exact HtS|].
  destruct (fget S p) as [ns|] eqn:ES; [discriminate|]. exfalso.
  (* S has nothing at p but D' has: p must have been a destination entry, which the mirror removes *)
  destruct (HM p) as [H1 H2]. destruct (fget D p) as [nd|] eqn:ED.
  - assert (HtD : takes_part D p) by (apply (takes_part_transfer incl S D p nd HtS ED HwD)).
    assert (Hsome : Some nd <> None) by discriminate. specialize (H1 (or_intror (conj HtD Hsome))). unfold Mirror.mirror_at in H1. rewrite ES in H1. congruence.
  - rewrite H2 in Hne; [congruence| |]; intros [_ X]; congruence.
Qed.

Lemma flat_map_nil {A B} (f : A -> list B) l : (forall x, In x l -> f x = []) -> flat_map f l = [].
Proof. induction l as [|a l IH]; intros H; cbn; [reflexivity|]. rewrite H by (left; reflexivity). apply IH. intros; apply H; right; assumption. Qed.

Theorem in_sync_plan_empty S D D' ls ld' :
  mirror S D D' -> wf_fs S -> wf_fs D -> fget S [] <> None ->
  valid_listing S ls -> valid_listing D' ld' ->
  plan_spec diff true (side_listing S ls) (side_listing D' ld') = mkActions [] [].
Proof.
  intros HM HwS HwD Hroot HvS HvD.
  pose proof (side_lists now_z incl normalize S ls HvS) as HS.
  pose proof (side_lists now_z incl normalize D' ld' HvD) as HD.
  pose proof (mirror_src S D D' HM) as Hm.
  unfold plan_spec. f_equal.
  - replace (flat_map (delete_dec diff (side_listing S ls)) (side_listing D' ld')) with (@nil (path * (entry * dreason))); [reflexivity|].
    symmetry. apply flat_map_nil. intros [p e] Hin.
    destruct (proj1 (proj2 HD p e) Hin) as (HtD & nd & ED & ->).
    assert (HneD : fget D' p <> None) by congruence.
    destruct (transfer_B S D D' HM HwD Hroot (length p) p eq_refl (conj HtD HneD)) as [HtS HneS].
    destruct (fget S p) as [ns|] eqn:ES; [|congruence].
    assert (HinS : In (p, entry_of ns) (side_listing S ls)) by (apply HS; split; [exact HtS|eauto]).
    unfold delete_dec, delete_decision. rewrite (alookup_in _ p (entry_of ns) (proj1 HS) HinS).
    assert (HneS2 : fget S p <> None) by congruence.
    destruct (mirror_at_in_sync S D D' p ns nd (Hm p (conj HtS HneS2)) ES ED) as [-> _]. reflexivity.
  - apply flat_map_nil. intros [p e] Hin.
    destruct (proj1 (proj2 HS p e) Hin) as (HtS & ns & ES & ->).
    assert (HneS : fget S p <> None) by congruence.
    destruct (transfer_A S D D' HM p (conj HtS HneS)) as [HtD HneD].
    destruct (fget D' p) as [nd|] eqn:ED; [|congruence].
    assert (HinD : In (p, entry_of nd) (side_listing D' ld')) by (apply HD; split; [exact HtD|eauto]).
    unfold copy_dec, copy_decision. rewrite (alookup_in _ p (entry_of nd) (proj1 HD) HinD).
    destruct (mirror_at_in_sync S D D' p ns nd (Hm p (conj HtS HneS)) ES ED) as [-> ->]. reflexivity.
Qed.


Theorem empty_plan_noop cfg S D2 ans bits ls ld2 ft sn dn :
  fget S [] = Some sn -> fget (d_fs D2) [] = Some dn ->
  needs_delete (cf_diff cfg) (entry_of sn) (entry_of dn) = false ->
  valid_listing S ls -> valid_listing (d_fs D2) ld2 ->
  plan_spec (cf_diff cfg) (beh_eqb (b_same (cf_b cfg)) BSkip) (side_listing S ls) (side_listing (d_fs D2) ld2) = mkActions [] [] ->
  let r := sync_one now_z normalize chunker cfg S D2 ans bits ls ld2 ft in
  r_ok r = true /\ r_dest r = D2 /\ filter mutating (r_dest_trace r) = [] /\
  (forall p, ~ In (CGetFileContent p) (r_src_trace r)) /\ r_prompts r = [] /\ stats_nothing (r_stats r) = true.
Proof.
  intros ErS ErD Hnd HvS HvD Hplan. cbv zeta.
  destruct (sync_one_cases now_z normalize chunker cfg S D2 ans bits ls ld2 ft) as (pl & [Hs|sn' skip np Hs Hg|sn' ans1 np1 steps r Hs Hg Hp]);
    [congruence| |]; rewrite ErS in Hs; inversion Hs; subst sn'; unfold root_gate in Hg; rewrite ErD in Hg; cbn [option_map] in Hg;
    rewrite Hnd in Hg; [discriminate|]. inversion Hg; subst ans1 np1.
  pose proof (arrivals_spec now_z incl normalize (cf_diff cfg) (beh_eqb (b_same (cf_b cfg)) BSkip) S (d_fs D2) sn bits ls ld2 HvS HvD ErS) as Hpl.
  rewrite Hplan in Hpl. rewrite start_state_idle in Hp by (right; rewrite ErD; discriminate).
  assert (Hc0 : forall b a, confirm b a (mkActions [] []) = CDone (mkActions [] []) [] b a []) by (intros [] a; reflexivity).
  destruct Hp as [Ha|acts Ha Hc|acts acts' sk b2 a2 np Ha Hc Hd|acts acts' sk b2 a2 np Ha Hc Hd]; rewrite Hpl in Ha; try discriminate;
    inversion Ha; subst acts; rewrite Hc0 in Hc; try discriminate; inversion Hc; subst;
    cbn [run_steps fold_left exec_steps a_delete a_copy map flat_map app
         r_ok r_dest r_dest_trace r_src_trace r_prompts r_stats rs_d rs_sent rs_src rs_errs rs_srcfail negb plan_stats];
    (split; [reflexivity|]; split; [reflexivity|]; split; [apply listing_trace_no_mut|]; split; [intros p; apply listing_trace_no_get|]; split; reflexivity).
Qed.

End Idem.
