(* C01: a successful sync without skips makes the destination a mirror of the source. *)
From RJ Require Import Base.Prelude Base.OrderedPlan Model.Settings Model.Core Model.Fs Model.Sync
  Spec.PlanSpec Spec.Mirror Proofs.PlanCProofs Proofs.FsProofs Proofs.ConfirmProofs Proofs.SyncProofs
  Proofs.DryProofs Proofs.ExecProofs Proofs.PathLemmas.

Lemma do_step_exec fl ft r c : rs_errs (do_step fl ft r (DestCmd c)) = rs_errs r ->
  rs_d (do_step fl ft r (DestCmd c)) = fst (doer_exec fl (rs_d r) c) /\ snd (doer_exec fl (rs_d r) c) = None.
Proof.
  unfold do_step. cbv zeta.
  destruct (mutating c && match ft_stop ft with Some n => Nat.leb n (rs_mut r) | None => false end);
    [cbn [fst snd rs_errs]; intros H; apply app_self_nil in H; discriminate|].
  destruct (mutating c && negb (is_chunk c) && mem_nat (rs_mut r) (ft_dest ft));
    [cbn [fst snd rs_errs]; intros H; apply app_self_nil in H; discriminate|].
  destruct (doer_exec fl (rs_d r) c) as [d' [e|]]; cbn [fst snd rs_d rs_errs]; intros H; [apply app_self_nil in H; discriminate|auto].
Qed.

Lemma run_steps_exec fl ft steps : forall r,
  rs_budget r = None -> rs_srcfail r = false ->
  rs_errs (run_steps fl ft r steps) = rs_errs r -> rs_srcfail (run_steps fl ft r steps) = false ->
  rs_d (run_steps fl ft r steps) = exec_all fl (rs_d r) (dest_cmds steps) /\
  all_ok fl (rs_d r) (dest_cmds steps).
Proof.
  induction steps as [|s steps IH]; intros r Hb Hs He Hf; [cbn; auto|].
  destruct (clean_run_cons fl ft r s steps Hb Hs He Hf) as (E & E1 & Hb' & Hs' & E2). rewrite E in *.
  destruct (IH _ Hb' Hs' E2 Hf) as (I1 & I2). rewrite I1.
  destruct s as [c|p]; cbn [dest_cmds flat_map app exec_all all_ok]; [|exact (conj eq_refl I2)].
  destruct (do_step_exec fl ft r c E1) as [D1 D2]. rewrite D1 in *. auto.
Qed.

Lemma ok_run_clean fl ft D t0 s0 steps :
  let r := run_steps fl ft (mkR D t0 s0 [] false 0 0 None) steps in
  match rs_errs r with [] => negb (rs_srcfail r) | _ => false end = true ->
  rs_d r = exec_all fl D (dest_cmds steps) /\ all_ok fl D (dest_cmds steps) /\
  rs_sent r = t0 ++ dest_cmds steps /\ rs_src r = s0 ++ src_fetches steps /\ rs_errs r = [] /\ rs_srcfail r = false.
Proof.
  intros r Hok. apply ok_clean in Hok as [He Hs].
  destruct (run_steps_exec fl ft steps (mkR D t0 s0 [] false 0 0 None) eq_refl eq_refl He Hs) as [E1 E2].
  destruct (run_steps_ok fl ft steps (mkR D t0 s0 [] false 0 0 None) eq_refl eq_refl He Hs) as (E3 & E4 & _).
  repeat split; assumption.
Qed.

Lemma alookup_in {V} (l : list (path * V)) p v :
  NoDup (map fst l) -> In (p, v) l -> alookup path path_eq_dec p l = Some v.
Proof.
  induction l as [|[k w] l IH]; intros Hnd Hin; [contradiction|]. cbn [alookup].
  inversion Hnd as [|? ? Hn Hnd']; subst. destruct Hin as [Heq|Hin].
  - inversion Heq; subst. destruct (path_eq_dec p p); [reflexivity|congruence].
  - destruct (path_eq_dec p k) as [->|Hne]; [|auto].
    exfalso. apply Hn. change k with (fst (k, v)). apply in_map. exact Hin.
Qed.
Lemma alookup_none {V} (l : list (path * V)) p : ~ In p (map fst l) -> alookup path path_eq_dec p l = None.
Proof.
  induction l as [|[k w] l IH]; intros Hn; [reflexivity|]. cbn [alookup].
  destruct (path_eq_dec p k) as [->|Hne]; [exfalso; apply Hn; left; reflexivity | apply IH; intro; apply Hn; right; assumption].
Qed.
Lemma alookup_some_in {V} (l : list (path * V)) p v : alookup path path_eq_dec p l = Some v -> In (p, v) l.
Proof.
  induction l as [|[k w] l IH]; cbn [alookup]; [discriminate|].
  destruct (path_eq_dec p k) as [->|Hne]; intros H; [inversion H; left; reflexivity | right; auto].
Qed.

Lemma subseq_nodup (l1 l2 : list path) : subseq path l1 l2 -> NoDup l2 -> NoDup l1.
Proof.
  induction 1 as [|x l1 l2 Hs IH|x l1 l2 Hs IH]; intros Hnd; [constructor| |]; inversion Hnd; subst; auto.
  constructor; auto. intro Hin. eapply subseq_in in Hin; eauto.
Qed.

Lemma target_eqb_eq a b : target_eqb a b = true -> a = b.
Proof. destruct a, b; cbn; try discriminate; intros H; apply str_eqb_eq in H; congruence. Qed.
Lemma target_eqb_refl a : target_eqb a a = true.
Proof. destruct a; cbn; apply str_eqb_refl. Qed.
Lemma skind_eqb_eq a b : skind_eqb a b = true <-> a = b.
Proof. destruct a, b; cbn; split; congruence. Qed.

(* the two decisions, by what the other side lists at the path *)
Definition copy_reason (diff ss : bool) (s : entry) (d : option entry) : option creason :=
  match d with
  | None => Some NotOnDest
  | Some d => if needs_delete diff s d then Some NotOnDest else needs_copy ss s d
  end.
Definition delete_reason (diff : bool) (s : option entry) (d : entry) : option dreason :=
  match s with
  | None => Some NotOnSource
  | Some s => if needs_delete diff s d then Some Incompatible else None
  end.

Lemma copy_dec_reason diff ss Ld p e :
  copy_dec diff ss Ld (p, e) =
  match copy_reason diff ss e (alookup path path_eq_dec p Ld) with Some r => [(p, (e, r))] | None => [] end.
Proof.
  unfold copy_dec, copy_decision, copy_reason. destruct (alookup _ _ _ _) as [d|]; [|reflexivity].
  destruct (needs_delete diff e d); [reflexivity|]. destruct (needs_copy ss e d); reflexivity.
Qed.
Lemma delete_dec_reason diff Ls p e :
  delete_dec diff Ls (p, e) =
  match delete_reason diff (alookup path path_eq_dec p Ls) e with Some r => [(p, (e, r))] | None => [] end.
Proof.
  unfold delete_dec, delete_decision, delete_reason. destruct (alookup _ _ _ _) as [s|]; [|reflexivity].
  destruct (needs_delete diff s e); reflexivity.
Qed.

Lemma in_copy_iff diff ss Ls Ld p e r :
  In (p, (e, r)) (a_copy (plan_spec diff ss Ls Ld)) <->
  In (p, e) Ls /\ copy_reason diff ss e (alookup path path_eq_dec p Ld) = Some r.
Proof.
  cbn [plan_spec a_copy]. rewrite in_flat_map. split.
  - intros ([p' e'] & Hin & Hd). rewrite copy_dec_reason in Hd.
    destruct (copy_reason _ _ _ _) as [r'|] eqn:E; [|destruct Hd]. destruct Hd as [H|[]]. inversion H; subst. auto.
  - intros [H1 H2]. exists (p, e). split; [exact H1|]. rewrite copy_dec_reason, H2. left; reflexivity.
Qed.
Lemma in_delete_iff diff ss Ls Ld p e r :
  In (p, (e, r)) (a_delete (plan_spec diff ss Ls Ld)) <->
  In (p, e) Ld /\ delete_reason diff (alookup path path_eq_dec p Ls) e = Some r.
Proof.
  cbn [plan_spec a_delete]. rewrite <- in_rev, in_flat_map. split.
  - intros ([p' e'] & Hin & Hd). rewrite delete_dec_reason in Hd.
    destruct (delete_reason _ _ _) as [r'|] eqn:E; [|destruct Hd]. destruct Hd as [H|[]]. inversion H; subst. auto.
  - intros [H1 H2]. exists (p, e). split; [exact H1|]. rewrite delete_dec_reason, H2. left; reflexivity.
Qed.

Lemma copy_keys_in diff ss Ls Ld q : In q (map fst (a_copy (plan_spec diff ss Ls Ld))) -> In q (lkeys Ls).
Proof. intros Hq. eapply subseq_in; [apply keys_copy_subseq | exact Hq]. Qed.
Lemma delete_keys_in diff ss Ls Ld q : In q (map fst (a_delete (plan_spec diff ss Ls Ld))) -> In q (lkeys Ld).
Proof.
  cbn [plan_spec a_delete]. rewrite map_rev. intros Hq. apply in_rev in Hq.
  eapply subseq_in; [apply keys_delete_subseq | exact Hq].
Qed.
Lemma nodup_copy_keys diff ss Ls Ld : NoDup (lkeys Ls) -> NoDup (map fst (a_copy (plan_spec diff ss Ls Ld))).
Proof. intros H. eapply subseq_nodup; [apply keys_copy_subseq | exact H]. Qed.
Lemma nodup_delete_keys diff ss Ls Ld : NoDup (lkeys Ld) -> NoDup (map fst (a_delete (plan_spec diff ss Ls Ld))).
Proof.
  intros H. cbn [plan_spec a_delete]. rewrite map_rev. apply NoDup_rev.
  eapply subseq_nodup; [apply keys_delete_subseq | exact H].
Qed.

Section MirrorMain.
Variable now_z : N -> Z.
Variable incl : path -> bool.
Variable normalize : str -> target.
Variable chunker : str -> list str.
Hypothesis chunker_ok : forall d, chunker d <> [] /\ concat (chunker d) = d.
Variable dest_fl : flavour.        (* the destination's flavour: its doer writes link text back with [denormalize dest_fl] *)
(* the link texts of a source tree survive the round trip through the destination (for the Unix
   normaliser: exactly the texts that to_string_lossy leaves alone, i.e. well-formed UTF-8 - see
   PathsProofs and known finding F7) *)
Definition links_roundtrip (S : fs) : Prop :=
  forall p t k, fget S p = Some (NLink t k) -> normalize (denormalize dest_fl (normalize t)) = normalize t.

Notation entry_of := (entry_of now_z normalize).
Notation valid_listing := (valid_listing now_z incl normalize).
Notation side_listing := (side_listing now_z normalize).
Notation takes_part := (takes_part incl).
Notation sync_one := (sync_one now_z normalize chunker).
Notation side_listing_spec := (side_listing_spec now_z incl normalize).

Definition wf_fs (f : fs) : Prop :=
  forall p n, fget f p = Some n -> forall q, is_strict_prefix q p = true -> fget f q = Some NFolder.
Definition src_times_set (f : fs) : Prop := forall p m d, fget f p = Some (NFile m d) -> exists t, m = TSet t.

Lemma entry_of_folder n : entry_of n = EFolder -> n = NFolder.
Proof. destruct n; cbn; intros H; try discriminate; reflexivity. Qed.

(* strict prefixes of a path that takes part are folders that take part *)
Lemma prefixes_of_visible f p q :
  takes_part f p -> p <> [] -> is_strict_prefix q p = true ->
  fget f q = Some NFolder /\ takes_part f q.
Proof.
  intros [->|[Hr Hv]] Hp Hq; [congruence|].
  apply visible_iff in Hv as (_ & Hi & Hpre).
  destruct q as [|c q']; [split; [exact Hr|left; reflexivity]|].
  destruct (Hpre (c :: q') ltac:(discriminate) Hq) as [Hiq Hfq]. split; [exact Hfq|].
  right. split; [exact Hr|]. apply visible_iff. split; [discriminate|]. split; [exact Hiq|].
  intros q2 Hq2 Hs2. apply Hpre; [exact Hq2|]. eapply strict_prefix_trans; eauto.
Qed.

(* a path that takes part in one tree takes part in any well-formed tree that has it: the filter verdicts
   are the same, and the prefixes of an existing path are folders *)
Lemma takes_part_transfer f g p n : takes_part f p -> fget g p = Some n -> wf_fs g -> takes_part g p.
Proof.
  intros Ht Hg Hw. destruct p as [|c p']; [left; reflexivity|]. right.
  split; [apply (Hw _ _ Hg); apply nil_strict_prefix; discriminate|].
  destruct Ht as [Hx|[_ Hv]]; [discriminate|]. apply visible_iff in Hv as (_ & Hi & Hpre).
  apply visible_iff. split; [discriminate|]. split; [exact Hi|].
  intros q Hq1 Hq2. split; [apply (Hpre q Hq1 Hq2)|apply (Hw _ _ Hg); exact Hq2].
Qed.

(* L lists tree f: what a side of the sync reports (side_listing_spec) *)
Definition lists (f : fs) (L : listing) : Prop :=
  NoDup (lkeys L) /\
  forall p e, In (p, e) L <-> takes_part f p /\ exists n, fget f p = Some n /\ e = entry_of n.

Lemma side_lists f L : valid_listing f L -> lists f (side_listing f L).
Proof.
  intros Hv. destruct (side_listing_spec f L Hv) as (Hnd & He & Hk). split; [exact Hnd|]. intros p e. split.
  - intros Hin. destruct (He p e Hin) as (n & En & ->). split; [|eauto].
    apply Hk. change p with (fst (p, entry_of n)). apply in_map. exact Hin.
  - intros (Ht & n & En & ->). assert (Hp : In p (lkeys (side_listing f L))) by (apply Hk; split; [exact Ht|congruence]).
    apply in_map_iff in Hp as ([p' e'] & Hp & Hin). cbn [fst] in Hp. subst p'.
    destruct (He _ _ Hin) as (n' & En' & ->). rewrite En in En'. inversion En'; subst n'. exact Hin.
Qed.

Lemma lists_key f L p : lists f L -> In p (lkeys L) -> takes_part f p /\ exists n, fget f p = Some n /\ In (p, entry_of n) L.
Proof.
  intros [_ HL] Hp. apply in_map_iff in Hp as ([p' e] & <- & Hin). destruct (proj1 (HL _ _) Hin) as (Ht & n & En & ->). eauto.
Qed.

(* what L holds at a path that takes part - on this side, or on the other while this tree is well-formed *)
Lemma lists_lookup f L g p : lists f L -> wf_fs f -> takes_part g p ->
  alookup path path_eq_dec p L = option_map entry_of (fget f p).
Proof.
  intros HL Hw Ht. destruct (fget f p) as [n|] eqn:En; cbn [option_map].
  - apply alookup_in; [apply HL|]. apply HL. split; [eapply takes_part_transfer; eauto|eauto].
  - apply alookup_none. intros Hp. destruct (lists_key f L p HL Hp) as (_ & n & En' & _). congruence.
Qed.

Section PlanFacts.
Variables (diff ss : bool) (S D : fs) (Ls Ld : listing).
Hypothesis HS : lists S Ls.
Hypothesis HD : lists D Ld.
Hypothesis HwD : wf_fs D.
Let acts := plan_spec diff ss Ls Ld.

Lemma copy_is_listed p e r : In (p, (e, r)) (a_copy acts) -> In (p, e) Ls /\ takes_part S p.
Proof. intros H. apply in_copy_iff in H as [H _]. split; [exact H|]. apply HS in H. tauto. Qed.

(* a destination entry where the source has something incompatible is deleted for that reason *)
Lemma in_the_way q es nd :
  In (q, es) Ls -> fget D q = Some nd -> needs_delete diff es (entry_of nd) = true ->
  In (q, (entry_of nd, Incompatible)) (a_delete acts).
Proof.
  intros HinLs Hq Hnd. apply in_delete_iff. assert (HtS : takes_part S q) by (apply HS in HinLs; tauto). split.
  - apply HD. split; [eapply takes_part_transfer; eauto|eauto].
  - rewrite (alookup_in Ls q es (proj1 HS) HinLs). cbn [delete_reason]. rewrite Hnd. reflexivity.
Qed.

(* a copy onto a path the destination holds: the old entry is deleted first, or it is an update in place *)
Lemma copy_onto_existing q e r n :
  In (q, (e, r)) (a_copy acts) -> fget D q = Some n ->
  In (q, (entry_of n, Incompatible)) (a_delete acts) \/
  (needs_delete diff e (entry_of n) = false /\ needs_copy ss e (entry_of n) = Some r).
Proof.
  intros Hin Hq. destruct (copy_is_listed _ _ _ Hin) as [HinLs HtS]. apply in_copy_iff in Hin as [_ Hr].
  rewrite (lists_lookup D Ld S q HD HwD HtS), Hq in Hr. cbn [option_map copy_reason] in Hr.
  destruct (needs_delete diff e (entry_of n)) eqn:Hnd; [left; eapply in_the_way; eauto|right; auto].
Qed.

End PlanFacts.

(* the node a copy writes is what a mirror has at that path *)
Lemma planned_mirror diff S D0 D' p ns :
  src_times_set S -> links_roundtrip S -> fget S p = Some ns ->
  fget D' p = Some (planned_node dest_fl S p (entry_of ns)) -> mirror_at now_z normalize diff dest_fl S D0 D' p.
Proof.
  intros Hts Hlinks EnS E. unfold mirror_at. rewrite EnS, E. destruct ns as [m b| |t k]; cbn [Fs.entry_of planned_node].
  - left. destruct (Hts _ _ _ EnS) as (t & ->). cbn [stamp_z]. unfold file_data. rewrite EnS. reflexivity.
  - reflexivity.
  - eexists; eexists. split; [reflexivity|]. split; [eapply Hlinks; eauto|right; reflexivity].
Qed.

(* so is a destination node that the planner found compatible and up to date, left as it was *)
Lemma kept_mirror diff ss S D0 D' p ns nd :
  fget S p = Some ns -> fget D0 p = Some nd -> fget D' p = fget D0 p ->
  needs_delete diff (entry_of ns) (entry_of nd) = false -> needs_copy ss (entry_of ns) (entry_of nd) = None ->
  mirror_at now_z normalize diff dest_fl S D0 D' p.
Proof.
  intros EnS EnD E Hnd Hnc. unfold mirror_at. rewrite EnS, E.
  destruct ns as [m b| |t k], nd as [m' b'| |t' k']; cbn [Fs.entry_of needs_delete needs_copy] in *; try discriminate.
  - right. exists b', m'. split; [exact EnD|]. split; [|reflexivity].
    destruct (Z.compare_spec (stamp_z now_z m) (stamp_z now_z m')); try discriminate; try (destruct ss; discriminate). symmetry; assumption.
  - exact EnD.
  - exists t', k'. split; [exact EnD|].
    destruct (target_eqb (normalize t) (normalize t')) eqn:Et; cbn [negb] in Hnd; [|discriminate].
    apply target_eqb_eq in Et. split; [congruence|].
    destruct diff; [right|left; reflexivity].
    destruct (skind_eqb k k') eqn:Ek; cbn [negb andb] in Hnd; [|discriminate]. symmetry. apply skind_eqb_eq. exact Ek.
Qed.

Lemma mirror_from_effects diff ss S D0 D' (Ls Ld : listing) :
  lists S Ls -> lists D0 Ld ->
  wf_fs S -> src_times_set S -> links_roundtrip S ->
  let acts := plan_spec diff ss Ls Ld in
  (forall p e r, In (p, (e, r)) (a_copy acts) -> fget D' p = Some (planned_node dest_fl S p e)) ->
  (forall p, ~ In p (map fst (a_copy acts)) -> In p (map fst (a_delete acts)) -> fget D' p = None) ->
  (forall p, ~ In p (map fst (a_copy acts)) -> ~ In p (map fst (a_delete acts)) -> fget D' p = fget D0 p) ->
  mirror now_z incl normalize diff dest_fl S D0 D'.
Proof.
  intros HS HD Hwf Hts Hlinks acts E1 E2 E3 p. split.
  - intros Htp. destruct (fget S p) as [ns|] eqn:EnS.
    + (* the source has p, and p takes part there even if only the destination side said so *)
      assert (HtS : takes_part S p) by (destruct Htp as [[Ht _]|[Ht _]]; [exact Ht|eapply takes_part_transfer; eauto]).
      assert (HinLs : In (p, entry_of ns) Ls) by (apply HS; eauto).
      assert (HaS : alookup path path_eq_dec p Ls = Some (entry_of ns)) by (apply alookup_in; [apply HS|exact HinLs]).
      destruct (copy_reason diff ss (entry_of ns) (alookup path path_eq_dec p Ld)) as [r|] eqn:Hr.
      * apply (planned_mirror diff S D0 D' p ns Hts Hlinks EnS). apply (E1 p _ r). apply in_copy_iff. auto.
      * (* compatible and up to date: neither copied nor deleted *)
        unfold copy_reason in Hr. destruct (alookup path path_eq_dec p Ld) as [ed|] eqn:HaD; [|discriminate].
        destruct (needs_delete diff (entry_of ns) ed) eqn:Hnd; [discriminate|].
        apply alookup_some_in in HaD as HinLd. destruct (proj1 (proj2 HD _ _) HinLd) as (_ & nd & EnD & ->).
        apply (kept_mirror diff ss S D0 D' p ns nd EnS EnD); auto. apply E3.
        -- intros Hq. apply in_map_iff in Hq as ([q [e r]] & <- & Hq). apply in_copy_iff in Hq as [Hq1 Hq2]. cbn [fst] in *.
           rewrite (alookup_in Ls _ e (proj1 HS) Hq1) in HaS. inversion HaS; subst e.
           rewrite HaD in Hq2. cbn [copy_reason] in Hq2. rewrite Hnd in Hq2. congruence.
        -- intros Hq. apply in_map_iff in Hq as ([q [e r]] & <- & Hq). apply in_delete_iff in Hq as [Hq1 Hq2]. cbn [fst] in *.
           rewrite (alookup_in Ld _ e (proj1 HD) Hq1) in HaD. inversion HaD; subst e.
           rewrite HaS in Hq2. cbn [delete_reason] in Hq2. rewrite Hnd in Hq2. discriminate.
    + (* the source has nothing at p: p is a destination entry, and it is deleted *)
      unfold mirror_at. rewrite EnS. destruct Htp as [[_ Hne]|[HtD Hne]]; [congruence|].
      destruct (fget D0 p) as [nd|] eqn:EnD; [|congruence].
      assert (HnS : ~ In p (lkeys Ls)) by (intros Hq; destruct (lists_key S Ls p HS Hq) as (_ & n & En & _); congruence).
      apply E2.
      * intros Hq. apply HnS. eapply copy_keys_in; exact Hq.
      * change p with (fst (p, (entry_of nd, NotOnSource))). apply in_map. apply in_delete_iff. split; [apply HD; eauto|].
        rewrite (alookup_none Ls p HnS). reflexivity.
  - (* p takes part on neither side: no command names it *)
    intros HnS HnD. apply E3; intros Hq; [apply HnS; apply copy_keys_in in Hq; destruct (lists_key S Ls p HS Hq) as (Ht & n & En & _)
                                         |apply HnD; apply delete_keys_in in Hq; destruct (lists_key D0 Ld p HD Hq) as (Ht & n & En & _)];
      (split; [exact Ht|congruence]).
Qed.

Lemma dest_cmds_map_delete (dl : list (path * (entry * dreason))) :
  dest_cmds (map (fun e => DestCmd (delete_cmd e)) dl) = map delete_cmd dl.
Proof. induction dl as [|e dl IH]; [reflexivity|]. unfold dest_cmds in *. cbn [map flat_map app]. rewrite IH. reflexivity. Qed.

Lemma start_steps_effect fl D dry droot :
  let st := exec_all fl D (dest_cmds (start_steps dry droot)) in
  d_fs st = d_fs D /\ d_open st = d_open D /\ (d_events st = d_events D \/ d_events st = d_events D ++ [CreatedAncestors]).
Proof. destruct (start_steps_shape dry droot) as [-> | ->]; cbn; [auto|]. destruct (d_anc D); cbn; auto. Qed.

(* What a successful, skip-free, non-dry run is: the plan of the two side listings, executed completely
   and without any error, from a state that differs from the initial one at most by the created ancestors. *)
Lemma sync_success_shape cfg S D ans bits ls ld ft :
  valid_listing S ls -> valid_listing (d_fs D) ld -> d_open D = None ->
  let r := sync_one cfg S D ans bits ls ld ft in
  r_ok r = true -> r_skipped r = [] -> r_root_skipped r = false -> cf_dry cfg = false ->
  exists stP,
    let acts := plan_spec (cf_diff cfg) (beh_eqb (b_same (cf_b cfg)) BSkip) (side_listing S ls) (side_listing (d_fs D) ld) in
    fget S [] <> None /\
    d_fs stP = d_fs D /\ d_open stP = None /\
    (d_events stP = d_events D \/ d_events stP = d_events D ++ [CreatedAncestors]) /\
    r_dest r = exec_all (cf_fl cfg) (exec_all (cf_fl cfg) stP (map delete_cmd (a_delete acts)))
                 (dest_cmds (flat_map (copy_steps chunker S) (a_copy acts))) /\
    all_ok (cf_fl cfg) stP (map delete_cmd (a_delete acts)) /\
    all_ok (cf_fl cfg) (exec_all (cf_fl cfg) stP (map delete_cmd (a_delete acts)))
       (dest_cmds (flat_map (copy_steps chunker S) (a_copy acts))).
Proof.
  intros HvS HvD Hopen. cbv zeta.
  destruct (sync_one_cases now_z normalize chunker cfg S D ans bits ls ld ft) as (pl & [Hs|sn skip np Hs Hg|sn ans1 np1 steps r Hs Hg
    [Ha|acts Ha Hc|acts acts' sk b2 a2 np Ha Hc Hd|acts acts' sk b2 a2 np Ha Hc Hd]]);
    try (cbn; discriminate); try (destruct skip; cbn; discriminate); try (cbn; congruence).
  rewrite start_then. cbn [r_ok r_skipped r_dest]. intros Hok Hsk _ _.
  rewrite (confirm_no_skip _ _ _ _ _ _ _ _ Hc Hsk) in *.
  rewrite (arrivals_spec now_z incl normalize _ _ S (d_fs D) sn bits ls ld HvS HvD Hs) in Ha. inversion Ha; subst acts.
  destruct (ok_run_clean _ _ _ _ _ _ Hok) as (X & A & _). rewrite X.
  unfold exec_steps in *. rewrite !dest_cmds_app, dest_cmds_map_delete in *.
  rewrite !exec_all_app. apply all_ok_app in A as [_ A]. apply all_ok_app in A as [Ad Ac].
  destruct (start_steps_effect (cf_fl cfg) D (cf_dry cfg) (option_map entry_of (fget (d_fs D) []))) as (F1 & F2 & F3).
  eexists. split; [congruence|]. split; [exact F1|]. split; [rewrite F2; exact Hopen|]. split; [exact F3|].
  split; [reflexivity|]. split; [exact Ad|exact Ac].
Qed.

Theorem mirror_theorem cfg S D ans bits ls ld ft :
  valid_listing S ls -> valid_listing (d_fs D) ld ->
  wf_fs S -> src_times_set S -> links_roundtrip S -> d_open D = None ->
  let r := sync_one cfg S D ans bits ls ld ft in
  r_ok r = true -> r_skipped r = [] -> r_root_skipped r = false -> cf_dry cfg = false ->
  no_through (d_events (r_dest r)) -> cf_fl cfg = dest_fl ->
  mirror now_z incl normalize (cf_diff cfg) dest_fl S (d_fs D) (d_fs (r_dest r)).
Proof.
  intros HvS HvD Hwf Hts Hlinks Hopen. cbv zeta. intros Hok Hsk Hrs Hdry Hnt Hflv.
  destruct (sync_success_shape cfg S D ans bits ls ld ft HvS HvD Hopen Hok Hsk Hrs Hdry)
    as (stP & Hroot & Hfs1 & Hop1 & _ & X2 & Ad & Ac).
  pose proof (side_lists S ls HvS) as HS. pose proof (side_lists (d_fs D) ld HvD) as HD.
  set (Ls := side_listing S ls) in *. set (Ld := side_listing (d_fs D) ld) in *.
  set (ss := beh_eqb (b_same (cf_b cfg)) BSkip) in *.
  set (acts := plan_spec (cf_diff cfg) ss Ls Ld) in *.
  set (stD := exec_all (cf_fl cfg) stP (map delete_cmd (a_delete acts))) in *.
  rewrite X2 in Hnt.
  assert (HntD : no_through (d_events stD)) by (eapply no_through_prefix; eauto).
  assert (NdD : NoDup (map fst (a_delete acts))) by (apply nodup_delete_keys; apply HD).
  assert (NdC : NoDup (map fst (a_copy acts))) by (apply nodup_copy_keys; apply HS).
  destruct (deletes_effect (cf_fl cfg) (a_delete acts) stP NdD Ad HntD) as (D1 & D2 & D3).
  fold stD in D1, D2, D3.
  assert (Hfl : forall p e r, In (p, (e, r)) (a_copy acts) -> file_listed S p e).
  { intros p e r Hin. apply in_copy_iff in Hin as [Hin _]. destruct (proj1 (proj2 HS _ _) Hin) as (_ & n & En & ->).
    destruct n; cbn; auto. eexists; eexists; eauto. }
  assert (HopD : d_open stD = None) by (rewrite D3; exact Hop1).
  destruct (copies_effect chunker chunker_ok (cf_fl cfg) S (a_copy acts) stD NdC Hfl HopD Ac Hnt) as (C1 & C2 & _).
  rewrite X2.
  rewrite Hflv in *.
  apply (mirror_from_effects (cf_diff cfg) ss S (d_fs D) _ Ls Ld); auto.
  - intros p Hnc Hd. rewrite C2 by assumption. apply D1. assumption.
  - intros p Hnc Hnd. rewrite C2 by assumption. rewrite D2 by assumption. rewrite Hfs1. reflexivity.
Qed.

End MirrorMain.
