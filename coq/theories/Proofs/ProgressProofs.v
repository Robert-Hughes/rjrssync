(* Proofs about Model/Progress.v (C18): the progress accounting of the boss never panics - for fewer than 2^32 deletes
   and 2^32 copies, files whose listed size is a u64 ([entry_fits]) and answers of the source doer in which only a
   first chunk may be empty ([tail_nonempty]); the witnesses at the end show what happens otherwise.

   Method: an "ideal" (unbounded) account of what the calls add up to ([ieff]); the concrete state is
   its clamp to the u64 range ([clamp]: saturating work / byte totals, u32 counters that never get near
   their limit); the three assertions are statements about the ideal account, proved by induction over
   the plan and over the chunk list of every file. *)
From RJ Require Import Base.Prelude Model.Chunk Model.Bincode Model.Progress Proofs.ChunkProofs.
Local Open Scope N_scope.

Definition ipv_add (x y : pv) : pv :=
  mkPV (pv_work x + pv_work y) (pv_delete x + pv_delete y) (pv_copy x + pv_copy y) (pv_bytes x + pv_bytes y).
Definition clamp (x : pv) : pv :=
  mkPV (N.min u64_max (pv_work x)) (pv_delete x) (pv_copy x) (N.min u64_max (pv_bytes x)).

Lemma pv_ext x y : pv_work x = pv_work y -> pv_delete x = pv_delete y -> pv_copy x = pv_copy y ->
  pv_bytes x = pv_bytes y -> x = y.
Proof. destruct x, y; cbn; intros; subst; reflexivity. Qed.

Ltac pv_lia := apply pv_ext; cbn [ipv_add clamp pv_zero pv_work pv_delete pv_copy pv_bytes]; lia.

Lemma ipv_add_assoc x y z : ipv_add (ipv_add x y) z = ipv_add x (ipv_add y z).
Proof. pv_lia. Qed.
Lemma ipv_add_0_l x : ipv_add pv_zero x = x.
Proof. pv_lia. Qed.
Lemma ipv_add_0_r x : ipv_add x pv_zero = x.
Proof. pv_lia. Qed.

Fixpoint isum (l : list pv) : pv := match l with [] => pv_zero | x :: t => ipv_add x (isum t) end.
Lemma isum_app a b : isum (a ++ b) = ipv_add (isum a) (isum b).
Proof. induction a as [|x a IH]; cbn [isum app]; [now rewrite ipv_add_0_l | now rewrite IH, ipv_add_assoc]. Qed.

(* what for_copy_partial returns when its own addition does not overflow *)
Definition ipartial (st sz fs : N) : pv :=
  if st + sz <? fs then mkPV (if min_file_size <? fs then sz else 0) 0 0 sz
  else mkPV (if min_file_size <? fs then sz else min_file_size) 0 1 sz.

Lemma for_copy_partial_ok st sz fs : st + sz <= u64_max -> for_copy_partial st sz fs = Ok (ipartial st sz fs).
Proof.
  intros H. unfold for_copy_partial, add64_plain, ipartial.
  destruct (st + sz <=? u64_max) eqn:E; [|lia]. cbn [obind].
  destruct (st + sz <? fs); reflexivity.
Qed.

Definition ieff1 (c : call) : pv :=
  match c with
  | KDelete => for_delete
  | KCopy e => for_copy e
  | KPartial st sz fs => ipartial st sz fs
  | KLimited | KMarker | KAllSent => pv_zero
  end.
Fixpoint ieff (cs : list call) : pv := match cs with [] => pv_zero | c :: t => ipv_add (ieff1 c) (ieff t) end.
Lemma ieff_app a b : ieff (a ++ b) = ipv_add (ieff a) (ieff b).
Proof. induction a as [|x a IH]; cbn [ieff app]; [now rewrite ipv_add_0_l | now rewrite IH, ipv_add_assoc]. Qed.

(* one saturating addition keeps the clamp relation *)
Lemma u64_max_val : u64_max = 18446744073709551615. Proof. reflexivity. Qed.
Lemma u32_lim_val : u32_lim = 4294967296. Proof. reflexivity. Qed.

Lemma add64_sat x y :
  add64 Saturating (N.min u64_max x) y = Ok (N.min u64_max (x + y)).
Proof.
  unfold add64. rewrite u64_max_val in *.
  destruct (N.min 18446744073709551615 x + y <=? 18446744073709551615) eqn:E; f_equal; lia.
Qed.

Lemma pv_add_sat I y :
  pv_delete I + pv_delete y < u32_lim -> pv_copy I + pv_copy y < u32_lim ->
  pv_add Saturating (clamp I) y = Ok (clamp (ipv_add I y)).
Proof.
  intros Hd Hc. unfold pv_add. cbn [clamp pv_work pv_delete pv_copy pv_bytes].
  rewrite add64_sat. cbn [obind]. unfold add32.
  destruct (pv_delete I + pv_delete y <? u32_lim) eqn:E1; [|lia]. cbn [obind].
  destruct (pv_copy I + pv_copy y <? u32_lim) eqn:E2; [|lia]. cbn [obind].
  rewrite add64_sat. cbn [obind]. reflexivity.
Qed.

Lemma sum_pv_sat l : forall I,
  pv_delete I + pv_delete (isum l) < u32_lim -> pv_copy I + pv_copy (isum l) < u32_lim ->
  sum_pv Saturating (clamp I) l = Ok (clamp (ipv_add I (isum l))).
Proof.
  induction l as [|x l IH]; intros I Hd Hc; cbn [sum_pv isum].
  - now rewrite ipv_add_0_r.
  - cbn [isum ipv_add pv_delete pv_copy] in Hd, Hc.
    rewrite pv_add_sat; [|lia|lia]. cbn [obind].
    rewrite IH; [|cbn [ipv_add pv_delete]; lia|cbn [ipv_add pv_copy]; lia].
    now rewrite ipv_add_assoc.
Qed.

Definition entry_fits (e : entry_details) : Prop := match e with EDFile _ size => size <= u64_max | _ => True end.

Global Opaque min_file_size delete_work marker_threshold.

Definition call_ok (T I : pv) (c : call) : Prop :=
  match c with
  | KLimited | KMarker => pv_delete I <= pv_delete T /\ pv_copy I <= pv_copy T
  | KAllSent => I = T
  | KPartial st sz fs => st + sz <= u64_max
  | KCopy _ | KDelete => True
  end.

(* a call list that the concrete state executes without a panic: relative to the ideal total T and
   the ideal amount I sent so far *)
Fixpoint safe (T I : pv) (cs : list call) : Prop :=
  match cs with
  | [] => True
  | c :: t =>
    call_ok T I c /\
    let I' := ipv_add I (ieff1 c) in
    pv_delete I' < u32_lim /\ pv_copy I' < u32_lim /\ safe T I' t
  end.

Lemma safe_app T a : forall I b, safe T I (a ++ b) <-> safe T I a /\ safe T (ipv_add I (ieff a)) b.
Proof.
  induction a as [|c a IH]; intros I b; cbn [app safe ieff].
  - rewrite ipv_add_0_r. tauto.
  - rewrite IH, ipv_add_assoc. tauto.
Qed.

Definition linked (T I : pv) (s : pstate) : Prop :=
  ps_total s = clamp T /\ ps_sent s = clamp I /\ ps_last s <= pv_work (ps_sent s).

Lemma clamp_work_mono I x : pv_work (clamp I) <= pv_work (clamp (ipv_add I x)).
Proof. cbn [clamp ipv_add pv_work]. lia. Qed.

Lemma get_marker_ok T I s : linked T I s -> pv_delete I <= pv_delete T -> pv_copy I <= pv_copy T ->
  exists s' m, get_marker s = Ok (s', m) /\ linked T I s'.
Proof.
  intros (Ht & Hs & Hl) Hd Hc. unfold get_marker. rewrite Ht, Hs.
  cbn [clamp pv_delete pv_copy pv_work pv_bytes].
  destruct (pv_delete I <=? pv_delete T) eqn:E1; [|lia].
  destruct (pv_copy I <=? pv_copy T) eqn:E2; [|lia]. cbn [negb].
  eexists _, _. split; [reflexivity|].
  unfold linked; cbn [ps_total ps_sent ps_last clamp pv_work]. repeat split; lia.
Qed.

Lemma sent_plus_ok T I s x : linked T I s ->
  pv_delete I + pv_delete x < u32_lim -> pv_copy I + pv_copy x < u32_lim ->
  exists s' om, sent_plus Saturating s x = Ok (s', om) /\ linked T (ipv_add I x) s'.
Proof.
  intros (Ht & Hs & Hl) Hd Hc. unfold sent_plus. rewrite Hs, pv_add_sat by assumption. cbn [obind].
  eexists _, _. split; [reflexivity|]. unfold linked, set_sent; cbn [ps_total ps_sent ps_last].
  repeat split; try assumption. rewrite Hs in Hl. pose proof (clamp_work_mono I x). lia.
Qed.

Lemma all_work_sent_ok T s : linked T T s -> all_work_sent s = Ok (mkMarker (pv_work (ps_sent s)) PDone).
Proof.
  intros (Ht & Hs & _). unfold all_work_sent, pv_eqb. rewrite Ht, Hs, !N.eqb_refl. reflexivity.
Qed.

Lemma exec_call_safe T I s c : linked T I s -> call_ok T I c ->
  pv_delete (ipv_add I (ieff1 c)) < u32_lim -> pv_copy (ipv_add I (ieff1 c)) < u32_lim ->
  exists s' om, exec_call Saturating s c = Ok (s', om) /\ linked T (ipv_add I (ieff1 c)) s'.
Proof.
  intros HL Hok Hd Hc. destruct c as [| | |e|st sz fs|]; cbn [exec_call ieff1 call_ok] in *.
  - (* KLimited *)
    rewrite ipv_add_0_r. unfold get_marker_limited. destruct (ps_detailed s); cbn [negb].
    + destruct HL as (Ht & Hs & Hl).
      destruct (pv_work (ps_sent s) <? ps_last s) eqn:E; [lia|].
      destruct (pv_work (ps_sent s) - ps_last s <? marker_threshold).
      * eexists _, _. split; [reflexivity|]. repeat split; assumption.
      * destruct (get_marker_ok T I s) as (s' & m & Hg & HL'); [repeat split; assumption|tauto|tauto|].
        rewrite Hg. cbn [obind fst snd]. eexists _, _. split; [reflexivity|assumption].
    + eexists _, _. split; [reflexivity|assumption].
  - (* KMarker *)
    rewrite ipv_add_0_r.
    destruct (get_marker_ok T I s) as (s' & m & Hg & HL'); [assumption|tauto|tauto|].
    rewrite Hg. cbn [obind fst snd]. eexists _, _. split; [reflexivity|assumption].
  - (* KDelete *) exact (sent_plus_ok T I s for_delete HL Hd Hc).
  - (* KCopy *) exact (sent_plus_ok T I s (for_copy e) HL Hd Hc).
  - (* KPartial: the chunk is no longer than the end offset that fits *)
    rewrite for_copy_partial_ok by assumption. cbn [obind].
    exact (sent_plus_ok T I s (ipartial st sz fs) HL Hd Hc).
  - (* KAllSent *)
    rewrite ipv_add_0_r. subst I. rewrite (all_work_sent_ok T s HL). cbn [obind].
    eexists _, _. split; [reflexivity|assumption].
Qed.

Lemma exec_calls_safe T cs : forall I s, linked T I s -> safe T I cs ->
  exists s' ms, exec_calls Saturating s cs = Ok (s', ms) /\ linked T (ipv_add I (ieff cs)) s'.
Proof.
  induction cs as [|c cs IH]; intros I s HL HS; cbn [exec_calls ieff].
  - rewrite ipv_add_0_r. eexists _, _. split; [reflexivity|assumption].
  - cbn [safe] in HS. destruct HS as (Hok & Hd & Hc & HS').
    destruct (exec_call_safe T I s c HL Hok Hd Hc) as (s1 & om & H1 & HL1).
    rewrite H1. cbn [obind fst snd].
    destruct (IH _ s1 HL1 HS') as (s2 & ms & H2 & HL2).
    rewrite H2. cbn [obind fst snd]. rewrite <- ipv_add_assoc. eexists _, _. split; [reflexivity|assumption].
Qed.

Lemma exec_calls_app a s pre post :
  exec_calls a s (pre ++ post) =
  obind (exec_calls a s pre) (fun r => obind (exec_calls a (fst r) post) (fun r' => Ok (fst r', snd r ++ snd r'))).
Proof.
  revert s. induction pre as [|c pre IH]; intros s; cbn [app exec_calls obind fst snd].
  - destruct (exec_calls a s post) as [[s' ms]| |]; reflexivity.
  - destruct (exec_call a s c) as [[s1 om]| |]; cbn [obind fst snd]; try reflexivity.
    rewrite IH. destruct (exec_calls a s1 pre) as [[s2 ms]| |]; cbn [obind fst snd]; try reflexivity.
    destruct (exec_calls a s2 post) as [[s3 ms']| |]; cbn [obind fst snd]; try reflexivity.
    destruct om; reflexivity.
Qed.

Lemma exec_calls_prefix_ok a s pre post r : exec_calls a s (pre ++ post) = Ok r -> exists r', exec_calls a s pre = Ok r'.
Proof.
  rewrite exec_calls_app. destruct (exec_calls a s pre) as [r'| |]; cbn [obind]; intros H; try discriminate.
  now exists r'.
Qed.

(* safety from a budget: a list without KAllSent whose whole effect stays within the total *)
Fixpoint wf_calls (cs : list call) : Prop :=
  match cs with
  | [] => True
  | c :: t =>
    match c with
    | KPartial st sz fs => st + sz <= u64_max
    | KAllSent => False
    | _ => True
    end /\ wf_calls t
  end.

Lemma wf_calls_app a b : wf_calls (a ++ b) <-> wf_calls a /\ wf_calls b.
Proof. induction a as [|c a IH]; cbn [app wf_calls]; [tauto | rewrite IH; tauto]. Qed.

Lemma safe_of_budget T cs : forall I, wf_calls cs ->
  pv_delete T < u32_lim -> pv_copy T < u32_lim ->
  pv_delete I + pv_delete (ieff cs) <= pv_delete T -> pv_copy I + pv_copy (ieff cs) <= pv_copy T ->
  safe T I cs.
Proof.
  induction cs as [|c cs IH]; intros I Hwf HT1 HT2 Hd Hc; cbn [safe]; [exact Logic.I|].
  cbn [wf_calls] in Hwf. destruct Hwf as [Hc0 Hwf].
  cbn [ieff ipv_add pv_delete pv_copy] in Hd, Hc.
  split; [|split; [|split]].
  - destruct c; cbn [call_ok]; try exact Logic.I; try assumption; try contradiction; lia.
  - cbn [ipv_add pv_delete]. lia.
  - cbn [ipv_add pv_copy]. lia.
  - apply IH; try assumption; cbn [ipv_add pv_delete pv_copy]; lia.
Qed.

Definition nonempty (c : N * bool) : Prop := fst c <> 0.
(* every chunk after the first one is non-empty (the premise on the source doer's answer) *)
Definition tail_nonempty (ans : answer) : Prop := Forall nonempty (List.tl ans).

(* what the non-final chunks up to offset [off] have added *)
Definition acc (size off : N) : pv := mkPV (if min_file_size <? size then off else 0) 0 0 off.
Definition file_pv (size : N) : pv := mkPV (N.max size min_file_size) 0 1 size.

Lemma Forall_tl {A} (P : A -> Prop) l : Forall P l -> Forall P (List.tl l).
Proof. intros H. destruct l; [constructor | now inversion H]. Qed.

(* once the file is complete, a further non-empty chunk only ends the transfer with an error *)
Lemma file_calls_done size ans : Forall nonempty ans -> exists e, file_calls size size ans = ([KLimited], Err e).
Proof.
  intros H. destruct ans as [|[n more] tl]; cbn [file_calls]; [eexists; reflexivity|].
  inversion H as [|? ? Hn ?]; subst. unfold nonempty in Hn; cbn [fst] in Hn.
  destruct (size <? size + n) eqn:E; [eexists; reflexivity|lia].
Qed.

Lemma file_calls_acct size : size <= u64_max -> forall ans off,
  Forall nonempty (List.tl ans) -> (off < size \/ off = 0) ->
  let r := file_calls size off ans in
  wf_calls (fst r) /\ pv_delete (ieff (fst r)) = 0 /\ pv_copy (ieff (fst r)) <= 1 /\
  (is_ok (snd r) = true -> ipv_add (acc size off) (ieff (fst r)) = file_pv size).
Proof.
  intros Hsize. induction ans as [|[n more] tl IH]; intros off Htl Hoff; cbn [file_calls].
  - cbn [fst snd wf_calls ieff ieff1 is_ok ipv_add pv_zero pv_delete pv_copy]. repeat split; try lia; try discriminate.
  - cbn [List.tl] in Htl.
    destruct (size <? off + n) eqn:E.
    { cbn [fst snd wf_calls ieff ieff1 is_ok ipv_add pv_zero pv_delete pv_copy]. repeat split; try lia; try discriminate. }
    assert (Hle : off + n <= size) by lia.
    destruct more.
    + (* more chunks follow *)
      cbn [fst snd].
      destruct (N.eq_dec (off + n) size) as [Heq|Hne].
      * (* this chunk completes the file: whatever follows only ends in an error *)
        destruct (file_calls_done size tl Htl) as (e & Hdone). rewrite Heq, Hdone. cbn [fst snd].
        cbn [wf_calls ieff ieff1 is_ok ipv_add pv_zero pv_delete pv_copy pv_work pv_bytes].
        unfold ipartial. destruct (off + n <? size) eqn:E2; [lia|].
        cbn [pv_delete pv_copy]. repeat split; try lia; try discriminate.
      * (* not complete yet *)
        assert (Hlt : off + n < size) by lia.
        specialize (IH (off + n) (Forall_tl _ _ Htl) (or_introl Hlt)).
        cbn zeta in IH. destruct IH as (W & D & C & A).
        cbn [wf_calls ieff ieff1].
        assert (Ep : ipartial off n size = mkPV (if min_file_size <? size then n else 0) 0 0 n).
        { unfold ipartial. destruct (off + n <? size) eqn:E2; [reflexivity|lia]. }
        rewrite Ep. cbn [ipv_add pv_zero pv_delete pv_copy pv_work pv_bytes].
        repeat split; try lia; try assumption.
        intros Hok. specialize (A Hok). rewrite <- A. unfold acc.
        apply pv_ext; cbn [ipv_add pv_zero pv_work pv_delete pv_copy pv_bytes];
          destruct (min_file_size <? size); lia.
    + (* the last chunk *)
      cbn [fst snd wf_calls ieff ieff1].
      unfold ipartial. destruct (off + n <? size) eqn:E2.
      * destruct (off + n =? size) eqn:E3; [lia|].
        cbn [ipv_add pv_zero pv_delete pv_copy pv_work pv_bytes is_ok]. repeat split; try lia; try discriminate.
      * assert (Heq : off + n = size) by lia.
        cbn [ipv_add pv_zero pv_delete pv_copy pv_work pv_bytes]. repeat split; try lia.
        intros _. unfold acc, file_pv.
        apply pv_ext; cbn [ipv_add pv_zero pv_work pv_delete pv_copy pv_bytes];
          destruct (min_file_size <? size) eqn:E4; lia.
Qed.

Lemma acc_zero size : acc size 0 = pv_zero.
Proof. unfold acc. destruct (min_file_size <? size); reflexivity. Qed.

Lemma copy_file_calls_acct dry size ans : size <= u64_max ->
  (forall an, ans = Some an -> tail_nonempty an) ->
  let r := copy_file_calls dry size ans in
  wf_calls (fst r) /\ pv_delete (ieff (fst r)) = 0 /\ pv_copy (ieff (fst r)) <= 1 /\
  (is_ok (snd r) = true -> ieff (fst r) = file_pv size).
Proof.
  intros Hsize Hans. unfold copy_file_calls. destruct dry.
  - cbn [fst snd wf_calls ieff ieff1 is_ok]. unfold ipartial. destruct (0 + size <? size) eqn:E; [lia|].
    cbn [ipv_add pv_zero pv_delete pv_copy pv_work pv_bytes]. repeat split; try lia.
    intros _. unfold file_pv.
    apply pv_ext; cbn [ipv_add pv_zero pv_work pv_delete pv_copy pv_bytes]; destruct (min_file_size <? size) eqn:E4; lia.
  - destruct ans as [an|].
    + pose proof (file_calls_acct size Hsize an 0 (Hans an eq_refl) (or_intror eq_refl)) as H.
      cbn zeta in H. destruct H as (W & D & C & A). cbn [fst snd wf_calls ieff ieff1].
      rewrite ipv_add_0_l. repeat split; try assumption.
      intros Hok. specialize (A Hok). now rewrite acc_zero, ipv_add_0_l in A.
    + cbn [fst snd wf_calls ieff ieff1 is_ok ipv_add pv_zero pv_delete pv_copy]. repeat split; try lia; try discriminate.
Qed.

Lemma for_copy_file mt size : for_copy (EDFile mt size) = file_pv size.
Proof. reflexivity. Qed.

Lemma copies_calls_acct dry : forall copies answers,
  Forall entry_fits copies -> Forall tail_nonempty answers ->
  let r := copies_calls dry copies answers in
  wf_calls (fst r) /\ pv_delete (ieff (fst r)) = 0 /\ pv_copy (ieff (fst r)) <= lenN copies /\
  (is_ok (snd r) = true -> ieff (fst r) = isum (map for_copy copies)).
Proof.
  induction copies as [|e tl IH]; intros answers HF HA; cbn [copies_calls].
  - cbn [fst snd wf_calls ieff map isum pv_zero pv_delete pv_copy]. repeat split; try reflexivity; apply N.le_0_l.
  - inversion HF as [|? ? He HF']; subst. rewrite lenN_cons.
    destruct e as [mt size| |k t].
    (* a folder, a symlink *)
    2, 3: specialize (IH answers HF' HA); cbn zeta in IH; destruct IH as (W2 & D2 & C2 & A2).
    2, 3: cbn [fst snd wf_calls ieff ieff1 for_copy ipv_add pv_zero pv_delete pv_copy entry_fits].
    2, 3: repeat split; try assumption; try lia.
    2, 3: intros Hok; cbn [map isum for_copy]; rewrite ipv_add_0_l, A2 by assumption; reflexivity.
    + (* a file *)
      cbn [entry_fits] in He.
      set (ans := if dry then None else hd_error answers).
      assert (Hans : forall an, ans = Some an -> tail_nonempty an).
      { intros an. unfold ans. destruct dry; [discriminate|].
        destruct answers as [|a0 rest]; cbn [hd_error]; [discriminate|].
        intros [= ->]. now inversion HA. }
      pose proof (copy_file_calls_acct dry size ans He Hans) as H. cbn zeta in H.
      destruct H as (W & D & C & A).
      destruct (snd (copy_file_calls dry size ans)) as [u|err|p] eqn:Eo.
      (* an error of the file ends the plan *)
      2, 3: repeat split; try assumption; try lia; rewrite Eo; discriminate.
      (* the file went through: the rest of the plan follows *)
      set (answers' := if dry then answers else List.tl answers).
      assert (HA' : Forall tail_nonempty answers').
      { unfold answers'. destruct dry; [assumption|]. destruct answers; [constructor|now inversion HA]. }
      specialize (IH answers' HF' HA'). cbn zeta in IH. destruct IH as (W2 & D2 & C2 & A2).
      cbn [fst snd]. rewrite wf_calls_app, ieff_app. cbn [ipv_add pv_delete pv_copy].
      repeat split; try assumption; try lia.
      intros Hok. cbn [map isum]. rewrite for_copy_file, A, A2 by (assumption || reflexivity). reflexivity.
Qed.

Lemma delete_calls_acct (dels : list entry_details) :
  wf_calls (delete_calls dels) /\ ieff (delete_calls dels) = isum (map (fun _ => for_delete) dels).
Proof.
  induction dels as [|d tl [W E]]; cbn [delete_calls wf_calls ieff ieff1 map isum]; [split; [exact Logic.I|reflexivity]|].
  split; [tauto|]. now rewrite ipv_add_0_l, E.
Qed.

Lemma isum_deletes (dels : list entry_details) : pv_delete (isum (map (fun _ => for_delete) dels)) = lenN dels /\
  pv_copy (isum (map (fun _ => for_delete) dels)) = 0.
Proof.
  induction dels as [|d tl [IH1 IH2]]; cbn [map isum]; [split; reflexivity|].
  rewrite lenN_cons. cbn [ipv_add for_delete pv_delete pv_copy]. split; lia.
Qed.

Lemma isum_copies copies : pv_delete (isum (map for_copy copies)) = 0 /\
  pv_copy (isum (map for_copy copies)) = lenN copies.
Proof.
  induction copies as [|e tl [IH1 IH2]]; cbn [map isum]; [split; reflexivity|].
  rewrite lenN_cons. destruct e; cbn [ipv_add for_copy pv_delete pv_copy]; split; lia.
Qed.

Definition itotal (dels copies : list entry_details) : pv :=
  isum (map (fun _ => for_delete) dels ++ map for_copy copies).

Lemma itotal_counts dels copies :
  pv_delete (itotal dels copies) = lenN dels /\ pv_copy (itotal dels copies) = lenN copies.
Proof.
  unfold itotal. rewrite isum_app. cbn [ipv_add pv_delete pv_copy].
  destruct (isum_deletes dels), (isum_copies copies). split; lia.
Qed.

Lemma progress_new_ok detailed dels copies :
  lenN dels < u32_lim -> lenN copies < u32_lim ->
  progress_new Saturating detailed dels copies = Ok (mkPS (clamp (itotal dels copies)) pv_zero 0 detailed).
Proof.
  intros Hd Hc. unfold progress_new.
  change pv_zero with (clamp pv_zero) at 1.
  destruct (itotal_counts dels copies) as [E1 E2]. unfold itotal in *.
  rewrite sum_pv_sat.
  - cbn [obind]. now rewrite ipv_add_0_l.
  - cbn [pv_zero pv_delete]. lia.
  - cbn [pv_zero pv_copy]. lia.
Qed.

Lemma boss_calls_safe dry dels copies answers :
  lenN dels < u32_lim -> lenN copies < u32_lim -> Forall entry_fits copies -> Forall tail_nonempty answers ->
  safe (itotal dels copies) pv_zero (fst (boss_calls dry dels copies answers)) /\
  pv_delete (ieff (fst (boss_calls dry dels copies answers))) <= lenN dels /\
  pv_copy (ieff (fst (boss_calls dry dels copies answers))) <= lenN copies.
Proof.
  intros Hd Hc HF HA. unfold boss_calls. cbn [fst].
  set (T := itotal dels copies).
  destruct (itotal_counts dels copies) as [ET1 ET2]. fold T in ET1, ET2.
  destruct (delete_calls_acct dels) as [WD ED].
  destruct (isum_deletes dels) as [SD1 SD2].
  pose proof (copies_calls_acct dry copies answers HF HA) as H. cbn zeta in H.
  destruct H as (WC & DC & CC & AC).
  set (r := copies_calls dry copies answers) in *.
  set (body := delete_calls dels ++ KMarker :: fst r).
  assert (Wb : wf_calls body).
  { unfold body. rewrite wf_calls_app. cbn [wf_calls]. tauto. }
  assert (Eb : ieff body = ipv_add (isum (map (fun _ => for_delete) dels)) (ieff (fst r))).
  { unfold body. rewrite ieff_app. cbn [ieff ieff1]. now rewrite ipv_add_0_l, ED. }
  assert (Sb : safe T pv_zero body).
  { apply safe_of_budget; try assumption; try lia; rewrite Eb; cbn [ipv_add pv_zero pv_delete pv_copy]; lia. }
  change (delete_calls dels ++ KMarker :: fst r ++ (if is_ok (snd r) then [KAllSent] else []))
    with (delete_calls dels ++ (KMarker :: fst r) ++ (if is_ok (snd r) then [KAllSent] else [])).
  rewrite app_assoc. fold body.
  split.
  - apply safe_app. split; [assumption|].
    destruct (is_ok (snd r)) eqn:Eok; [|exact Logic.I].
    cbn [safe call_ok ieff1]. rewrite ipv_add_0_l, ipv_add_0_r, Eb, (AC eq_refl).
    unfold T, itotal. rewrite isum_app. repeat split; try reflexivity.
    + rewrite <- isum_app. fold (itotal dels copies). fold T. lia.
    + rewrite <- isum_app. fold (itotal dels copies). fold T. lia.
  - rewrite ieff_app, Eb.
    assert (Z : ieff (if is_ok (snd r) then [KAllSent] else []) = pv_zero) by (destruct (is_ok (snd r)); reflexivity).
    rewrite Z. cbn [ipv_add pv_zero pv_delete pv_copy]. lia.
Qed.

(* Every prefix of the boss's calls executes from the state Progress::new returns; the state it reaches is the
   clamp of the ideal account of the prefix, and what follows is safe from there. *)
Lemma boss_prefix_linked detailed dry dels copies answers :
  lenN dels < u32_lim -> lenN copies < u32_lim -> Forall entry_fits copies -> Forall tail_nonempty answers ->
  forall pre post, fst (boss_calls dry dels copies answers) = pre ++ post ->
  exists s ms, exec_calls Saturating (mkPS (clamp (itotal dels copies)) pv_zero 0 detailed) pre = Ok (s, ms) /\
    linked (itotal dels copies) (ieff pre) s /\ safe (itotal dels copies) (ieff pre) post /\
    pv_delete (ieff pre) <= lenN dels /\ pv_copy (ieff pre) <= lenN copies.
Proof.
  intros Hd Hc HF HA pre post Hsplit.
  destruct (boss_calls_safe dry dels copies answers Hd Hc HF HA) as (HS & B1 & B2).
  rewrite Hsplit in HS, B1, B2. apply safe_app in HS as [HSpre HSpost]. rewrite ipv_add_0_l in HSpost.
  set (T := itotal dels copies) in *.
  assert (HL : linked T pv_zero (mkPS (clamp T) pv_zero 0 detailed)).
  { unfold linked; cbn [ps_total ps_sent ps_last clamp pv_zero pv_work pv_delete pv_copy pv_bytes].
    repeat split; try reflexivity; lia. }
  destruct (exec_calls_safe T pre pv_zero _ HL HSpre) as (s & ms & He & HLs). rewrite ipv_add_0_l in HLs.
  rewrite ieff_app in B1, B2. cbn [ipv_add pv_delete pv_copy] in B1, B2.
  exists s, ms. split; [exact He|]. split; [exact HLs|]. split; [exact HSpost|]. lia.
Qed.

(* Every prefix of the boss's calls executes without a panic, and in the state it reaches the two
   marker assertions hold (at every point, whether or not a marker is requested there). *)
Theorem progress_prefix_invariant detailed dry dels copies answers :
  lenN dels < u32_lim -> lenN copies < u32_lim -> Forall entry_fits copies -> Forall tail_nonempty answers ->
  exists s0, progress_new Saturating detailed dels copies = Ok s0 /\
  forall pre post, fst (boss_calls dry dels copies answers) = pre ++ post ->
  exists s ms, exec_calls Saturating s0 pre = Ok (s, ms) /\
    ps_total s = ps_total s0 /\
    pv_delete (ps_sent s) <= pv_delete (ps_total s) /\ pv_copy (ps_sent s) <= pv_copy (ps_total s).
Proof.
  intros Hd Hc HF HA. eexists. split; [apply progress_new_ok; assumption|].
  intros pre post Hsplit.
  destruct (boss_prefix_linked detailed dry dels copies answers Hd Hc HF HA pre post Hsplit)
    as (s & ms & He & (Lt & Ls & _) & _ & B1 & B2).
  exists s, ms. split; [exact He|]. split; [exact Lt|].
  rewrite Lt, Ls. cbn [clamp pv_delete pv_copy]. destruct (itotal_counts dels copies) as [E1 E2]. lia.
Qed.

(* the boss-side outcome is an error or Ok, never a panic of its own *)
Lemma file_calls_no_panic size : forall ans off, is_panic (snd (file_calls size off ans)) = false.
Proof.
  induction ans as [|[n more] tl IH]; intros off; cbn [file_calls]; [reflexivity|].
  destruct (size <? off + n); [reflexivity|]. destruct more; cbn [snd]; [apply IH|].
  destruct (off + n =? size); reflexivity.
Qed.

Lemma copies_calls_no_panic dry : forall copies answers, is_panic (snd (copies_calls dry copies answers)) = false.
Proof.
  induction copies as [|e tl IH]; intros answers; cbn [copies_calls]; [reflexivity|].
  destruct e as [mt size| |k t]; try (cbn [snd]; apply IH).
  set (here := copy_file_calls dry size (if dry then None else hd_error answers)).
  assert (Hh : is_panic (snd here) = false).
  { unfold here, copy_file_calls. destruct dry; [reflexivity|].
    destruct (hd_error answers); [cbn [snd]; apply file_calls_no_panic | reflexivity]. }
  destruct (snd here) eqn:E; [cbn [snd]; apply IH | rewrite E; reflexivity | rewrite E; exact Hh].
Qed.

(* No panic: for every plan and every answer of the source doer in which only a first chunk may be empty. *)
Theorem progress_no_panic detailed dry dels copies answers :
  lenN dels < u32_lim -> lenN copies < u32_lim -> Forall entry_fits copies -> Forall tail_nonempty answers ->
  is_panic (boss_run Saturating detailed dry dels copies answers) = false.
Proof.
  intros Hd Hc HF HA.
  destruct (progress_prefix_invariant detailed dry dels copies answers Hd Hc HF HA) as (s0 & Hn & Hp).
  destruct (Hp (fst (boss_calls dry dels copies answers)) [] (eq_sym (app_nil_r _))) as (s & ms & He & _).
  unfold boss_run. rewrite Hn. cbn [obind]. rewrite He. cbn [obind snd].
  pose proof (copies_calls_no_panic dry copies answers) as Hnp.
  unfold boss_calls. cbn [snd]. destruct (snd (copies_calls dry copies answers)); [reflexivity|reflexivity|exact Hnp].
Qed.

(* At all_work_sent: the state reached by everything before it has total = sent, and the call succeeds. *)
Theorem progress_all_sent detailed dry dels copies answers :
  lenN dels < u32_lim -> lenN copies < u32_lim -> Forall entry_fits copies -> Forall tail_nonempty answers ->
  is_ok (snd (boss_calls dry dels copies answers)) = true ->
  exists s0 body s ms m,
    progress_new Saturating detailed dels copies = Ok s0 /\
    fst (boss_calls dry dels copies answers) = body ++ [KAllSent] /\
    exec_calls Saturating s0 body = Ok (s, ms) /\
    ps_total s = ps_sent s /\
    exec_call Saturating s KAllSent = Ok (s, Some m) /\ pm_phase m = PDone.
Proof.
  intros Hd Hc HF HA Hok.
  assert (Eb : fst (boss_calls dry dels copies answers)
               = (delete_calls dels ++ KMarker :: fst (copies_calls dry copies answers)) ++ [KAllSent]).
  { unfold boss_calls in *. cbn [fst snd] in *. rewrite Hok, <- app_assoc. reflexivity. }
  destruct (boss_prefix_linked detailed dry dels copies answers Hd Hc HF HA _ _ Eb)
    as (s & ms & He & HL & (HIT & _) & _).
  cbn [call_ok] in HIT. rewrite HIT in HL.
  eexists _, _, s, ms, _. split; [apply progress_new_ok; assumption|]. split; [exact Eb|]. split; [exact He|].
  split; [destruct HL as (Lt & Ls & _); now rewrite Lt, Ls|].
  cbn [exec_call]. rewrite (all_work_sent_ok _ s HL). split; reflexivity.
Qed.

(* The real reader (Model/Chunk.v read_chunks = handle_get_file_contents) satisfies the premise, and
   for a file whose length is the listed size the transfer is accepted. *)
Lemma reader_tail_nonempty (file : list ascii) (sched : list N) cs :
  read_chunks file sched = Some cs -> tail_nonempty (answer_of cs).
Proof.
  intros H. destruct (C11_chunks_proof file sched) as (cs' & H' & _ & _ & _ & Hne & Hnil).
  rewrite H in H'. injection H' as <-.
  unfold tail_nonempty, answer_of.
  destruct file as [|b file].
  - rewrite (Hnil eq_refl). cbn [map List.tl]. constructor.
  - assert (Hall : Forall (fun c : chunk => fst c <> []) cs) by (apply Hne; discriminate).
    destruct cs as [|c tl]; cbn [map List.tl]; [constructor|].
    inversion Hall as [|? ? _ Htl]; subst. apply Forall_forall. intros x Hin.
    apply in_map_iff in Hin as (c' & <- & Hin). unfold nonempty. cbn [fst].
    intros Hz. apply lenN_zero in Hz. exact (proj1 (Forall_forall _ _) Htl c' Hin Hz).
Qed.

(* the chunk loop of copy_file as the progress accounting sees it ends as the relay of Model/Chunk.v ends *)
Lemma file_calls_relay size mt (cs : list chunk) : forall off,
  snd (file_calls size off (answer_of cs)) = snd (relay_from true size mt off cs).
Proof.
  induction cs as [|c tl IH]; intros off; [reflexivity|].
  unfold answer_of. cbn [map file_calls relay_from fst snd]. fold (answer_of tl).
  destruct (size <? off + lenN (fst c)); [reflexivity|]. destruct (snd c); [|reflexivity].
  cbn [snd]. rewrite IH. destruct (relay_from true size mt (off + lenN (fst c)) tl). reflexivity.
Qed.

Theorem reader_file_accepted (file : list ascii) (sched : list N) cs :
  read_chunks file sched = Some cs ->
  tail_nonempty (answer_of cs) /\ snd (file_calls (lenN file) 0 (answer_of cs)) = Ok tt.
Proof.
  intros H. split; [exact (reader_tail_nonempty file sched cs H)|].
  destruct (read_chunks_spec file sched) as (cs' & H' & Hfl & (Hcat & _)).
  rewrite H in H'. injection H' as <-.
  rewrite (file_calls_relay (lenN file) 0%Z cs 0), (relay_from_ok true (lenN file) 0%Z cs 0 Hfl); [reflexivity|].
  unfold total. now rewrite Hcat.
Qed.

Lemma stats_total_sat sizes : forall acc,
  stats_total Saturating (N.min u64_max acc) sizes = Ok (N.min u64_max (acc + fold_right N.add 0 sizes)).
Proof.
  induction sizes as [|x t IH]; intros acc; cbn [stats_total fold_right].
  - now rewrite N.add_0_r.
  - rewrite add64_sat. cbn [obind]. now rewrite IH, N.add_assoc.
Qed.

Theorem stats_total_no_panic sizes : Forall (fun x => x <= u64_max) sizes ->
  stats_total Saturating 0 sizes = Ok (N.min u64_max (fold_right N.add 0 sizes)).
Proof.
  intros HF. change 0 with (N.min u64_max 0) at 1. now rewrite stats_total_sat.
Qed.

(* Why the premises are needed: witnesses (finite computations). *)
Definition t0 : time := mkTime 0 0.

(* an EMPTY chunk after the file is complete counts the file twice: all_work_sent's assertion fails *)
Lemma trailing_empty_chunk_refuted :
  Forall entry_fits [EDFile t0 5] /\ ~ tail_nonempty [(5, true); (0, false)] /\
  boss_run Saturating false false [] [EDFile t0 5] [[(5, true); (0, false)]] = Panic e_assert_total.
Proof.
  split; [repeat (apply Forall_cons; [cbn [entry_fits]; rewrite u64_max_val; lia|]); apply Forall_nil|]. split.
  - unfold tail_nonempty. cbn [List.tl]. intros H. inversion H as [|? ? Hn _]; subst. now apply Hn.
  - vm_compute. reflexivity.
Qed.

(* ... and with a visible progress bar the marker assertion `sent.copy <= total.copy` fails first *)
(* finite computations that depend on the values of the constants are stated for the usual values *)
Definition usual_constants : Prop := min_file_size = 1048576 /\ delete_work = 1048576 /\ marker_threshold = 1048576.
Ltac by_constants := intros (H1 & H2 & H3); first
  [ vm_compute; reflexivity
  | exfalso; vm_compute in H1, H2, H3; first [discriminate H1 | discriminate H2 | discriminate H3] ].

Lemma trailing_empty_chunk_marker_refuted : usual_constants ->
  boss_run Saturating true false [] [EDFile t0 10] [[(10, true); (0, true); (0, false)]] = Panic e_assert_copy.
Proof. by_constants. Qed.

(* the code before the repair of the byte totals: three maximal sparse files *)
Lemma unfixed_totals_refuted :
  let big := EDFile t0 9223372036854775807 in
  Forall entry_fits [big; big; big] /\
  progress_new Checked false [] [big; big; big] = Panic e_add_overflow /\
  boss_run Checked false true [] [big; big; big] [] = Panic e_add_overflow /\
  stats_total Checked 0 [9223372036854775807; 9223372036854775807; 9223372036854775807] = Panic e_add_overflow /\
  (exists ms, boss_run Saturating false true [] [big; big; big] [] = Ok ms) /\
  stats_total Saturating 0 [9223372036854775807; 9223372036854775807; 9223372036854775807] = Ok u64_max.
Proof.
  cbn zeta. split; [repeat (apply Forall_cons; [cbn [entry_fits]; rewrite u64_max_val; lia|]); apply Forall_nil|].
  repeat split; try (vm_compute; reflexivity). eexists. vm_compute. reflexivity.
Qed.

(* non-vacuity: a plan with deletes, a folder, a symlink, an empty file, a small and a large file in
   several chunks; the markers of a run with a visible bar *)
Example progress_example :
  let dels := [EDFolder; EDFile t0 7] in
  let copies := [EDFolder; EDSymlink SKFile (STNormalized []); EDFile t0 0; EDFile t0 10; EDFile t0 3145728] in
  let answers := [[(0, false)]; [(4, true); (6, false)]; [(1048576, true); (2097152, false)]] in
  Forall tail_nonempty answers /\
  is_ok (boss_run Saturating true false dels copies answers) = true /\
  (usual_constants ->
   boss_run Saturating true false dels copies answers =
    Ok [mkMarker 1048576 (PDeleting 1); mkMarker 2097152 (PCopying 0 0); mkMarker 3145728 (PCopying 1 0);
        mkMarker 4194304 (PCopying 2 0); mkMarker 5242880 (PCopying 3 0); mkMarker 6291456 (PCopying 4 10);
        mkMarker 7340032 (PCopying 4 1048586); mkMarker 9437184 PDone]).
Proof.
  cbn zeta. split; [|split].
  - repeat constructor; unfold nonempty; cbn [fst]; lia.
  - vm_compute. reflexivity.
  - by_constants.
Qed.
