(* C14, encrypted TCP leg: every message the protocol can produce fits the fixed buffers of the link,
   is therefore sealed and framed by the sender of Model/Frame.v, and - with the stream theorem of the
   frames cluster - comes out of the receiving automaton exactly once, in order, and decodes to itself. *)
From RJ Require Import Base.Prelude Model.LEInt Model.Bincode Model.WireLink
  Proofs.LEIntProofs Proofs.BincodeProofs.
From RJ Require Model.Frame Proofs.FrameProofs.
Local Open Scope N_scope.

Lemma size_target_var t : size_target t = 12 + target_len t.
Proof. destruct t; cbn [size_target target_len]; unfold size_buf; lia. Qed.

Lemma size_details_bound d : size_details d <= 24 + details_var d.
Proof.
  destruct d as [mt sz| |k t]; cbn [size_details details_var]; try lia.
  rewrite size_target_var. lia.
Qed.

Lemma size_command_bound c : size_command c <= fixed_max + data_command c + var_command c.
Proof.
  unfold fixed_max.
  destruct c as [r|f| |p|p d mt more|p k t|p|p|p|p k| |m|];
    cbn [size_command data_command var_command]; unfold size_buf; try lia.
  - destruct mt; cbn [size_option]; lia.
  - rewrite size_target_var. lia.
  - unfold size_marker. destruct (pm_phase m); cbn [size_phase]; lia.
Qed.

Lemma size_response_bound r : size_response r <= fixed_max + data_response r + var_response r.
Proof.
  unfold fixed_max.
  destruct r as [d diff c|p d| |d more|d|p|m|s];
    cbn [size_response data_response var_response]; unfold size_buf; try lia.
  - destruct d as [x|]; cbn [size_option]; [pose proof (size_details_bound x)|]; lia.
  - pose proof (size_details_bound d). lia.
  - unfold size_marker. destruct (pm_phase m); cbn [size_phase]; lia.
Qed.

(* the largest legitimate message with its tag and its length header fits the 8 MiB buffers *)
Lemma legit_fits_bound sz data var : sz <= fixed_max + data + var ->
  (data <=? max_chunk) && (var <=? other_max) = true -> len_prefix + sz + tag_len <= Frame.buf_size.
Proof.
  intros B H. apply andb_true_iff in H as [Hd Hv]. apply N.leb_le in Hd, Hv.
  unfold Frame.buf_size, len_prefix, tag_len, fixed_max, max_chunk, other_max in *. lia.
Qed.

Theorem legit_command_fits c : legit_command c = true ->
  len_prefix + size_command c + tag_len <= Frame.buf_size.
Proof. exact (legit_fits_bound _ _ _ (size_command_bound c)). Qed.

Theorem legit_response_fits r : legit_response r = true ->
  len_prefix + size_response r + tag_len <= Frame.buf_size.
Proof. exact (legit_fits_bound _ _ _ (size_response_bound r)). Qed.

Lemma class_of_fits sz : len_prefix + sz + tag_len <= Frame.buf_size -> link_class_of true sz = LDelivered.
Proof.
  intros H. unfold link_class_of. cbn [negb].
  unfold Frame.buf_size, len_prefix, tag_len in *.
  destruct (8388608 - 8 <? sz) eqn:E1; [apply N.ltb_lt in E1; lia|].
  destruct (8388608 - 8 <? sz + 16) eqn:E2; [apply N.ltb_lt in E2; lia|].
  reflexivity.
Qed.

Section Delivered.
  Variable T : Type.
  Variables (wf legit encodable : T -> bool) (size : T -> N).
  Hypothesis wf_encodable : forall x, wf x = true -> encodable x = true.
  Hypothesis legit_fits : forall x, legit x = true -> len_prefix + size x + tag_len <= Frame.buf_size.

  Lemma legit_delivered x : wf x = true -> legit x = true -> link_class_of (encodable x) (size x) = LDelivered.
  Proof. intros Hw Hl. rewrite (wf_encodable x Hw). apply class_of_fits, legit_fits, Hl. Qed.
End Delivered.

Definition legit_command_delivered := legit_delivered _ _ _ _ _ wf_command_encodable legit_command_fits.
Definition legit_response_delivered := legit_delivered _ _ _ _ _ wf_response_encodable legit_response_fits.

Lemma blen_lenN (b : list ascii) : Frame.blen b = lenN b.
Proof. unfold Frame.blen. symmetry. apply lenN_length. Qed.

Section Sender.
  Variable seal : list ascii -> list ascii -> list ascii.
  (* the AEAD appends a 16-byte tag (AES-128-GCM; the toy functionality of Frame.v has the same expansion) *)
  Hypothesis Hexp : forall ctr m, Frame.blen (seal (Frame.nonce_of ctr) m) = Frame.blen m + tag_len.

  (* [link_class_of] is what [Frame.send_step] does with a plaintext of that size *)
  Lemma send_step_class bump d ctr m :
    ctr mod 2 = Frame.lsb d -> ctr + 2 < Frame.u64_limit ->
    match link_class_of true (Frame.blen m) with
    | LDelivered => Frame.send_step seal bump d ctr m
                    = Ok (Frame.next_ctr bump ctr, Frame.frame_of (seal (Frame.nonce_of ctr) m))
    | LSerialize => exists e, Frame.send_step seal bump d ctr m = Err e
    | LTagPanic => exists s, Frame.send_step seal bump d ctr m = Panic s
    | LUnencodable => False
    end.
  Proof.
    intros Hp Ho. unfold link_class_of, Frame.send_step. cbn [negb]. unfold len_prefix.
    destruct (Frame.buf_size - 8 <? Frame.blen m) eqn:E1; [eexists; reflexivity|].
    rewrite Hp, N.eqb_refl. cbn [negb].
    destruct (Frame.u64_limit <=? ctr + 2) eqn:E2; [apply N.leb_le in E2; lia|].
    rewrite Hexp.
    destruct (Frame.buf_size - 8 <? Frame.blen m + tag_len) eqn:E3; [eexists; reflexivity | reflexivity].
  Qed.

  Lemma send_step_fits bump d ctr m :
    ctr mod 2 = Frame.lsb d -> ctr + 2 < Frame.u64_limit ->
    len_prefix + Frame.blen m + tag_len <= Frame.buf_size ->
    Frame.send_step seal bump d ctr m = Ok (Frame.next_ctr bump ctr, Frame.frame_of (seal (Frame.nonce_of ctr) m)).
  Proof.
    intros Hp Ho Hf. pose proof (send_step_class bump d ctr m Hp Ho) as S.
    rewrite (class_of_fits _ Hf) in S. exact S.
  Qed.

  (* a sender whose every message fits never fails (the counter stays below 2^64) *)
  Lemma send_all_fits d ms : forall ctr,
    ctr mod 2 = Frame.lsb d -> ctr + 2 * lenN ms < Frame.u64_limit ->
    Forall (fun m => len_prefix + Frame.blen m + tag_len <= Frame.buf_size) ms ->
    exists ctr' frames, Frame.send_all seal true d ctr ms = Ok (ctr', frames).
  Proof.
    induction ms as [|m r IH]; intros ctr Hp Ho Hf.
    - cbn [Frame.send_all]. eexists; eexists; reflexivity.
    - inversion Hf as [|? ? Hm Hr]; subst. cbn [lenN] in Ho.
      cbn [Frame.send_all]. rewrite (send_step_fits true d ctr m Hp ltac:(lia) Hm).
      cbn [obind fst snd Frame.next_ctr].
      destruct (IH (ctr + 2) (FrameProofs.parity_add _ _ 1 Hp) ltac:(lia) Hr) as (c2 & f2 & E).
      rewrite E. cbn [obind fst snd]. eexists; eexists; reflexivity.
  Qed.
End Sender.

Lemma lenN_map {A B} (f : A -> B) l : lenN (map f l) = lenN l.
Proof. induction l as [|a t IH]; cbn [map lenN]; [reflexivity | now rewrite IH]. Qed.

Section Leg.
  Variable seal : list ascii -> list ascii -> list ascii.
  Variable open : list ascii -> list ascii -> option (list ascii).
  Variable fin : list ascii -> bool.
  Variable d : Frame.dir.
  Hypothesis H1 : forall n m, open n (seal n m) = Some m.
  Hypothesis Hexp : forall ctr m, Frame.blen (seal (Frame.nonce_of ctr) m) = Frame.blen m + tag_len.

  (* either message type of the protocol, with what the codec proves about it *)
  Variable T : Type.
  Variables (enc : T -> list ascii) (dec : list ascii -> option (T * list ascii)) (wf legit : T -> bool) (size : T -> N).
  Hypothesis dec_enc : forall x rest, wf x = true -> dec (enc x ++ rest) = Some (x, rest).
  Hypothesis len_enc : forall x, lenN (enc x) = size x.
  Hypothesis legit_fits : forall x, legit x = true -> len_prefix + size x + tag_len <= Frame.buf_size.
  Notation deserializes := (fun m => match dec m with Some _ => true | None => false end).

  (* Any number (< 2^62) of legitimate messages, the final one (if any) last: the sender seals and frames
     them all, and whatever TCP segmentation the byte stream arrives in, the receiving automaton delivers
     exactly these plaintexts, in order - and each of them deserializes to the message it came from. *)
  Theorem link_delivers (xs : list T) (segs : list (list ascii)) :
    Forall (fun x => wf x = true /\ legit x = true) xs ->
    Frame.lsb d + 2 * lenN xs < Frame.u64_limit ->
    Frame.upto_final fin (map enc xs) = map enc xs ->
    exists ctr' frames,
      Frame.send_all seal true d (Frame.lsb d) (map enc xs) = Ok (ctr', frames) /\
      (concat segs = concat frames ->
       Frame.decode_stream open deserializes fin true d segs = map enc xs) /\
      Forall (fun x => dec (enc x) = Some (x, [])) xs.
  Proof.
    intros Hl Hn Hfin.
    assert (Hdec : Forall (fun x => dec (enc x) = Some (x, [])) xs).
    { eapply Forall_impl; [|exact Hl]. intros x [W _]. rewrite <- (app_nil_r (enc x)). apply dec_enc, W. }
    assert (Hfit : Forall (fun m => len_prefix + Frame.blen m + tag_len <= Frame.buf_size) (map enc xs)).
    { apply Forall_map. eapply Forall_impl; [|exact Hl]. intros x [_ L]. cbn beta.
      rewrite blen_lenN, len_enc. apply legit_fits, L. }
    assert (Hwf : Forall (fun m => deserializes m = true) (map enc xs)).
    { apply Forall_map. eapply Forall_impl; [|exact Hdec]. intros x D. cbn beta. rewrite D. reflexivity. }
    destruct (send_all_fits seal Hexp d (map enc xs) (Frame.lsb d) (FrameProofs.lsb_parity d)
                ltac:(rewrite lenN_map; exact Hn) Hfit) as (ctr' & frames & E).
    exists ctr', frames. split; [exact E|]. split; [|exact Hdec].
    intros Hseg. exact (FrameProofs.stream_roundtrip seal open deserializes fin d H1 _ segs ctr' frames E Hwf Hfin Hseg).
  Qed.
End Leg.

Definition link_delivers_commands seal open fin d H1 Hexp :=
  link_delivers seal open fin d H1 Hexp _ _ _ _ _ _ decode_encode_command len_enc_command legit_command_fits.
Definition link_delivers_responses seal open fin d H1 Hexp :=
  link_delivers seal open fin d H1 Hexp _ _ _ _ _ _ decode_encode_response len_enc_response legit_response_fits.

(* non-vacuity of the expansion premise: the toy functionality of Frame.v expands by 16 bytes *)
Lemma toy_seal_expands k ctr m :
  Frame.blen (Frame.toy_seal k (Frame.nonce_of ctr) m) = Frame.blen m + tag_len.
Proof.
  unfold Frame.toy_seal, Frame.blen, Frame.toy_tag, Frame.nonce_of, tag_len.
  rewrite !app_length, FrameProofs.le_bytes_length, repeat_length, firstn_length, app_length, repeat_length.
  replace (Nat.min 4 (length k + 4)) with 4%nat by lia. lia.
Qed.
