(* The event log of every state a kill can leave behind is a prefix of the event log at the end of the run, so a
   run that ends without a Through event has none in any of its kill states: the "nothing went through a link"
   premise of C07/C08 is discharged by C02's general confinement theorem (ConfineAll.no_run_goes_through_a_link). *)
From RJ Require Import Base.Prelude Base.OrderedPlan Model.Settings Model.Core Model.Fs Model.Paths Model.Sync Model.SyncTop
  Spec.PlanSpec Spec.Mirror Proofs.FsProofs Proofs.StepProofs Proofs.ExecProofs Proofs.MirrorProofs Proofs.InstanceProofs
  Proofs.CrashProofs Proofs.CrashMain Proofs.TouchedProofs Proofs.WfProofs Proofs.ConfineAll Proofs.RepairMain.

Lemma cmd_states_before_final fl st c s :
  In s (cmd_states fl st c) -> exists l, d_events (fst (doer_exec fl st c)) = d_events s ++ l.
Proof.
  intros Hin. apply ev_le_same.
  apply cmd_states_cases in Hin as [->|(p & data & mt & more & st1 & -> & Hb & Hr & Hs)]; [reflexivity|].
  rewrite chunk_exec by assumption. destruct Hs as [(Eo & ->)|(Eo & Hs)]; rewrite Eo; [reflexivity|].
  destruct (chunk_end_same st1 p data mt more) as (_ & -> & _). destruct Hs as [->|(k & ->)]; reflexivity.
Qed.

Section Steps.
Variable fl : flavour.
Variable ft : faults.

Lemma steps_states_before_final steps : forall r s, In s (steps_states fl ft r steps) ->
  exists l, d_events (rs_d (run_steps fl ft r steps)) = d_events s ++ l.
Proof.
  induction steps as [|st rest IH]; intros r s; cbn [steps_states]; [intros []|].
  rewrite run_steps_cons.
  intros Hin. apply in_app_or in Hin as [Hin|Hin]; [|apply IH; exact Hin].
  apply step_states_in in Hin as (c & E & Hin). pose proof (run_step_d fl ft r st) as Hd. rewrite E in Hd.
  eapply ev_le_trans; [apply cmd_states_before_final; exact Hin|]. rewrite <- Hd. apply run_steps_events.
Qed.

End Steps.

Section AllSyncs.
Variable now_z : N -> Z.
Variable incl : path -> bool.
Variable normalize : str -> target.
Variable chunker : str -> list str.
Hypothesis chunker_ok : forall d, chunker d <> [] /\ concat (chunker d) = d.
Notation sync_one := (sync_one now_z normalize chunker).
Notation sync_plan := (sync_plan now_z normalize chunker).
Notation sync_kill_states := (sync_kill_states now_z normalize chunker).

Section Run.
Variable cfg : config.
Variable S : fs.
Variable D : dstate.
Variable ans : list answer.
Variable bits : list bool.
Variables ls ld : list (path * entry).
Variable ft : faults.
Hypothesis HvS : valid_listing now_z incl normalize S ls.
Hypothesis HvD : valid_listing now_z incl normalize (d_fs D) ld.
Hypothesis HpS : parents_first (lkeys (side_listing now_z normalize S ls)).
Hypothesis HpD : parents_first (lkeys (side_listing now_z normalize (d_fs D) ld)).
Hypothesis HwD : wf_fs (d_fs D).
Hypothesis Hnt0 : no_through (d_events D).

(* every kill state's log is a part of the final log, which holds no Through event *)
Lemma kill_states_never_through s : In s (sync_kill_states cfg S D ans bits ls ld ft) -> no_through (d_events s).
Proof.
  intros Hin.
  pose proof (no_run_goes_through_a_link now_z incl normalize chunker cfg S D ans bits ls ld ft HvS HvD HpS HpD HwD Hnt0) as Hnt.
  unfold CrashMain.sync_kill_states in Hin. apply steps_states_before_final in Hin.
  rewrite (sync_one_runs_plan now_z normalize chunker) in Hnt. exact (ev_le_no_through _ _ Hin Hnt).
Qed.

(* C07's last clause and C08 with no premise about links: every kill state and the final state satisfy
   Touched, hence Good *)
Theorem kill_states_touched : d_open D = None ->
  let steps := snd (sync_plan cfg S D ans bits ls ld) in
  let T := Touched (cf_fl cfg) S (d_fs D) (cmd_of_plan steps) (file_of_plan steps) in
  (forall s, In s (sync_kill_states cfg S D ans bits ls ld ft) -> T s /\ no_through (d_events s)) /\
  T (r_dest (sync_one cfg S D ans bits ls ld ft)).
Proof.
  intros Ho steps T.
  destruct (only_planned_changes now_z normalize chunker chunker_ok cfg S D ans bits ls ld ft Ho) as [G1 G2].
  split; [|apply G2, (no_run_goes_through_a_link now_z incl normalize chunker); assumption].
  intros s Hin. pose proof (kill_states_never_through s Hin) as Hnt. split; [apply G1; assumption|exact Hnt].
Qed.

Theorem kill_states_good : d_open D = None ->
  (forall s, In s (sync_kill_states cfg S D ans bits ls ld ft) -> Good S (d_fs D) s /\ no_through (d_events s)) /\
  Good S (d_fs D) (r_dest (sync_one cfg S D ans bits ls ld ft)).
Proof.
  intros Ho. destruct (kill_states_touched Ho) as [T1 T2]. split; [|eapply touched_good, T2].
  intros s Hin. destruct (T1 s Hin) as [HT Hnt]. split; [eapply touched_good, HT|exact Hnt].
Qed.

End Run.
End AllSyncs.

Theorem kill_states_touched_unconditional cfg S D a ans bits ex ft :
  unique_keys S -> wf_fs S -> unique_keys D -> wf_fs D ->
  let ls := list_fs now_far (excl_incl ex) normalize_unix S in
  let ld := list_fs now_far (excl_incl ex) normalize_unix D in
  let steps := snd (sync_plan now_far normalize_unix chunk_real cfg S (world D a []) ans bits ls ld) in
  let T := Touched (cf_fl cfg) S D (cmd_of_plan steps) (file_of_plan steps) in
  (forall s, In s (sync_kill_states now_far normalize_unix chunk_real cfg S (world D a []) ans bits ls ld ft) -> T s) /\
  T (r_dest (run_top cfg S D a ans bits ex ft)).
Proof.
  intros HuS HwS HuD HwD ls ld steps T.
  destruct (kill_states_touched now_far (excl_incl ex) normalize_unix chunk_real chunk_real_ok cfg S (world D a []) ans bits ls ld ft
              (list_fs_valid _ _ _ S HuS HwS) (list_fs_valid _ _ _ D HuD HwD)
              (list_fs_parents_first _ _ _ S) (list_fs_parents_first _ _ _ D) HwD eq_refl eq_refl) as [T1 T2].
  split; [intros s Hin; apply T1, Hin|exact T2].
Qed.

Theorem kill_states_good_unconditional cfg S D a ans bits ex ft :
  unique_keys S -> wf_fs S -> unique_keys D -> wf_fs D ->
  let ls := list_fs now_far (excl_incl ex) normalize_unix S in
  let ld := list_fs now_far (excl_incl ex) normalize_unix D in
  let r := run_top cfg S D a ans bits ex ft in
  (forall s, In s (sync_kill_states now_far normalize_unix chunk_real cfg S (world D a []) ans bits ls ld ft) ->
     Good S D s /\ no_through (d_events s)) /\
  Good S D (r_dest r).
Proof.
  intros HuS HwS HuD HwD.
  exact (kill_states_good now_far (excl_incl ex) normalize_unix chunk_real chunk_real_ok cfg S (world D a []) ans bits _ _ ft
           (list_fs_valid _ _ _ S HuS HwS) (list_fs_valid _ _ _ D HuD HwD)
           (list_fs_parents_first _ _ _ S) (list_fs_parents_first _ _ _ D) HwD eq_refl eq_refl).
Qed.

(* C03 end to end for the executable sync: in every kill state and at the end of every run, an existing entry
   that is no longer what it was had the consent of its category. *)
From RJ Require Import Proofs.ConsentAll.
Theorem consent_executable cfg S D a ans bits ex ft s :
  unique_keys S -> wf_fs S -> unique_keys D -> wf_fs D ->
  let ls := list_fs now_far (excl_incl ex) normalize_unix S in
  let ld := list_fs now_far (excl_incl ex) normalize_unix D in
  (In s (sync_kill_states now_far normalize_unix chunk_real cfg S (world D a []) ans bits ls ld ft) \/
   s = r_dest (run_top cfg S D a ans bits ex ft)) ->
  forall p n, fget D p = Some n -> fget (d_fs s) p <> Some n ->
    entry_consent cfg ans \/
    ((exists m d m' d', n = NFile m d /\ fget (d_fs s) p = Some (NFile m' d')) /\ overwrite_consent cfg ans).
Proof.
  intros HuS HwS HuD HwD ls ld Hs p n HD Hch.
  destruct (kill_states_touched_unconditional cfg S D a ans bits ex ft HuS HwS HuD HwD) as [T1 T2].
  refine (consent_end_to_end now_far (excl_incl ex) normalize_unix chunk_real cfg S (world D a []) ans bits ls ld
            (list_fs_valid now_far (excl_incl ex) normalize_unix S HuS HwS)
            (list_fs_valid now_far (excl_incl ex) normalize_unix D HuD HwD) HwD eq_refl s _ p n HD Hch).
  destruct Hs as [Hs| ->]; [apply T1; exact Hs|exact T2].
Qed.
