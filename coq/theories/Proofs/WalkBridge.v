(* The bridge between the directory walk (Model/Walker.v, C17) and the sync core (Model/Fs.v, Spec/Mirror.v;
   C01, C02, C03, C08, C12 take a [valid_listing] in [parents_first] order as a premise).

   [tree_of f]: the walker's view of a file-system model f - the children of a folder are the keys one
   component longer, each with the filter verdict on its path; a link is a leaf.
   The reference walk of [tree_of f] lists exactly the visible entries, each once ([walk_tree_visible],
   [walk_tree_nodup]); hence whatever the N-worker walk delivers before its end-of-list marker, completed
   with the entry details, IS a valid listing in parents-first order ([walker_listing_valid]) - for every
   number of workers, queue capacity and interleaving. *)
From RJ Require Import Base.Prelude Base.OrderedPlan Model.Settings Model.Core Model.Fs Spec.PlanSpec Spec.Mirror
  Proofs.PathLemmas Proofs.MirrorProofs Proofs.PlanCProofs Proofs.InstanceProofs.
From RJ Require Model.Walker Proofs.WalkerProofs.
From Coq Require Import Permutation.
Module W := RJ.Model.Walker.

Fixpoint strip (p q : path) : option path :=
  match p, q with
  | [], _ => Some q
  | a :: p', b :: q' => if str_eq_dec a b then strip p' q' else None
  | _ :: _, [] => None
  end.

Definition child_names (f : fs) (p : path) : list str :=
  nodup str_eq_dec (flat_map (fun e : path * node => match strip p (fst e) with Some [n] => [n] | _ => [] end) f).

Definition kind_of_node (n : node) : W.kind :=
  match n with NFile _ _ => W.KFile | NFolder => W.KDir | NLink _ _ => W.KLink end.

Section Bridge.
Variable incl : path -> bool.

Fixpoint tree_of (fuel : nat) (f : fs) (p : path) : W.tree :=
  match fget f p with
  | Some NFolder =>
      match fuel with
      | 0 => W.Dir true []
      | S k => W.Dir true (map (fun n => (n, (negb (incl (p ++ [n])), tree_of k f (p ++ [n])))) (child_names f p))
      end
  | Some (NFile _ _) => W.Leaf W.LFile
  | Some (NLink _ _) => W.Leaf W.LLink
  | None => W.Leaf W.LBad
  end.

Definition tree_of_fs (f : fs) : W.tree := tree_of (max_depth f) f [].

Lemma strip_some p : forall q r, strip p q = Some r <-> q = p ++ r.
Proof.
  induction p as [|a p IH]; intros q r; cbn [strip app].
  - split; [intros H; inversion H; reflexivity | intros ->; reflexivity].
  - destruct q as [|b q]; [split; discriminate|].
    destruct (str_eq_dec a b) as [->|Hne].
    + rewrite IH. split; [intros ->; reflexivity | intros H; inversion H; reflexivity].
    + split; [discriminate | intros H; inversion H; congruence].
Qed.

Lemma child_names_in f p n : In n (child_names f p) <-> In (p ++ [n]) (map fst f).
Proof.
  unfold child_names. rewrite nodup_In, in_flat_map. split.
  - intros [[q m] [Hin Hn]]. cbn [fst] in Hn. destruct (strip p q) as [[|x [|y r]]|] eqn:E; try contradiction.
    destruct Hn as [->|[]]. apply strip_some in E. subst q. change (p ++ [n]) with (fst (p ++ [n], m)). apply in_map. exact Hin.
  - intros Hin. apply in_map_iff in Hin as [[q m] [Hq Hin]]. cbn [fst] in Hq. subst q.
    exists (p ++ [n], m). split; [exact Hin|]. cbn [fst].
    destruct (strip p (p ++ [n])) as [r|] eqn:E.
    + apply strip_some in E. apply app_inv_head in E. subst r. left. reflexivity.
    + assert (H : strip p (p ++ [n]) = Some [n]) by (apply strip_some; reflexivity). congruence.
Qed.

Lemma fget_key f p n : fget f p = Some n -> In p (map fst f).
Proof. intros H. apply alookup_some_in in H. change p with (fst (p, n)). apply in_map. exact H. Qed.

Lemma key_fget (f : fs) q : In q (map fst f) -> exists n, fget f q = Some n.
Proof.
  unfold fget. induction f as [|[k w] f IH]; intros H; [contradiction|]. cbn [alookup].
  destruct (path_eq_dec q k) as [->|Hne]; [eexists; reflexivity|].
  destruct H as [H|H]; [cbn [fst] in H; congruence|auto].
Qed.

Lemma key_depth f p : In p (map fst f) -> length p <= max_depth f.
Proof. intros H. apply in_map_iff in H as [[q m] [Hq Hin]]. cbn [fst] in Hq. subst q. exact (length_le_max_depth incl f p m Hin). Qed.

Lemma tree_of_folder fuel f p : fget f p = Some NFolder -> exists ch, tree_of fuel f p = W.Dir true ch.
Proof. intros H. destruct fuel; cbn [tree_of]; rewrite H; eexists; reflexivity. Qed.

Definition below (f : fs) (p q : path) (k : W.kind) : Prop :=
  exists r, r <> [] /\ q = p ++ r /\ incl q = true /\
    (forall r1 r2, r = r1 ++ r2 -> r1 <> [] -> r2 <> [] -> incl (p ++ r1) = true /\ fget f (p ++ r1) = Some NFolder) /\
    exists n, fget f q = Some n /\ k = kind_of_node n.

(* what the walk emits for one child *)
Definition child_part (f : fs) (k : nat) (p : path) (n : str) : list W.entry :=
  if negb (incl (p ++ [n])) then [] else
  match tree_of k f (p ++ [n]) with
  | W.Leaf W.LFile => [(p ++ [n], W.KFile)]
  | W.Leaf W.LLink => [(p ++ [n], W.KLink)]
  | W.Leaf W.LOther => [(p ++ [n], W.KOther)]
  | W.Leaf W.LBad => []
  | W.Dir _ _ => (p ++ [n], W.KDir) :: W.walk_spec (p ++ [n]) (tree_of k f (p ++ [n]))
  end.

Lemma walk_spec_children f k p :
  W.walk_spec p (W.Dir true (map (fun n => (n, (negb (incl (p ++ [n])), tree_of k f (p ++ [n])))) (child_names f p)))
  = flat_map (child_part f k p) (child_names f p).
Proof.
  cbn [W.walk_spec]. rewrite flat_map_concat_map, map_map, <- flat_map_concat_map.
  apply flat_map_ext. intros n. unfold child_part.
  destruct (negb (incl (p ++ [n]))); [reflexivity|].
  destruct (tree_of k f (p ++ [n])) as [[| | |]|r ch]; reflexivity.
Qed.

Lemma child_part_spec f k p n node :
  fget f (p ++ [n]) = Some node ->
  child_part f k p n =
  if negb (incl (p ++ [n])) then [] else
  (p ++ [n], kind_of_node node) ::
  match node with NFolder => W.walk_spec (p ++ [n]) (tree_of k f (p ++ [n])) | _ => [] end.
Proof.
  intros H. unfold child_part. destruct (negb (incl (p ++ [n]))); [reflexivity|].
  destruct node as [mt d| |t sk].
  - destruct k; cbn [tree_of]; rewrite H; reflexivity.
  - destruct (tree_of_folder k f _ H) as [ch E]. rewrite E. reflexivity.
  - destruct k; cbn [tree_of]; rewrite H; reflexivity.
Qed.

Lemma snoc_app_assoc (p : path) n r : (p ++ [n]) ++ r = p ++ n :: r.
Proof. rewrite <- app_assoc. reflexivity. Qed.

Lemma walk_tree_below : forall fuel f p,
  (forall q, In q (map fst f) -> length q <= length p + fuel) ->
  fget f p = Some NFolder ->
  forall q k, In (q, k) (W.walk_spec p (tree_of fuel f p)) <-> below f p q k.
Proof.
  induction fuel as [|fuel IH]; intros f p Hd Hp q k; cbn [tree_of]; rewrite Hp.
  - cbn [W.walk_spec flat_map]. split; [contradiction|].
    intros (r & Hr & -> & _ & _ & n & Hn & _). apply fget_key in Hn. apply Hd in Hn.
    rewrite app_length in Hn. destruct r; [congruence|]. cbn [length] in Hn. lia.
  - rewrite walk_spec_children, in_flat_map. split.
    + intros (n & Hn & Hin). apply child_names_in in Hn.
      destruct (fget f (p ++ [n])) as [node|] eqn:En.
      2:{ exfalso. apply key_fget in Hn as [m Hm]. congruence. }
      rewrite (child_part_spec f fuel p n node En) in Hin.
      destruct (incl (p ++ [n])) eqn:Ei; cbn [negb] in Hin; [|contradiction].
      destruct Hin as [Heq|Hin].
      * inversion Heq; subst q k. exists [n]. split; [discriminate|]. split; [reflexivity|]. split; [exact Ei|]. split.
        -- intros r1 r2 E H1 H2. exfalso. destruct r1 as [|a r1]; [congruence|]. destruct r1; destruct r2; try congruence; discriminate.
        -- exists node. split; [exact En|reflexivity].
      * destruct node as [mt d| |t sk]; try contradiction.
        apply IH in Hin; [|intros q' Hq'; apply Hd in Hq'; rewrite app_length; cbn [length]; lia|exact En].
        destruct Hin as (r & Hr & -> & Hi & Hc & Hn').
        exists (n :: r). split; [discriminate|]. split; [apply snoc_app_assoc|]. split; [exact Hi|]. split.
        -- intros r1 r2 E H1 H2. destruct r1 as [|a r1]; [congruence|]. cbn [app] in E. inversion E; subst a.
           destruct r1 as [|b r1].
           ++ split; [exact Ei|exact En].
           ++ rewrite <- snoc_app_assoc. apply (Hc (b :: r1) r2); [assumption|discriminate|exact H2].
        -- exact Hn'.
    + intros (r & Hr & -> & Hi & Hc & node & Hn & ->).
      destruct r as [|n r]; [congruence|]. exists n.
      destruct r as [|m r].
      * split; [apply child_names_in; exact (fget_key f _ _ Hn)|].
        rewrite (child_part_spec f fuel p n node Hn), Hi. cbn [negb]. left. reflexivity.
      * destruct (Hc [n] (m :: r) eq_refl) as [Ei En]; [discriminate|discriminate|].
        split; [apply child_names_in; exact (fget_key f _ _ En)|].
        rewrite (child_part_spec f fuel p n NFolder En), Ei. cbn [negb]. right.
        apply IH; [intros q' Hq'; apply Hd in Hq'; rewrite app_length; cbn [length]; lia|exact En|].
        exists (m :: r). split; [discriminate|]. split; [symmetry; apply snoc_app_assoc|]. split; [exact Hi|]. split.
        -- intros r1 r2 E H1 H2. rewrite snoc_app_assoc. apply (Hc (n :: r1) r2); [cbn [app]; rewrite E; reflexivity|discriminate|exact H2].
        -- exists node. split; [exact Hn|reflexivity].
Qed.

Lemma nodup_flat_map {A B} (F : A -> list B) (l : list A) :
  NoDup l -> (forall x, In x l -> NoDup (F x)) ->
  (forall x y z, In x l -> In y l -> x <> y -> In z (F x) -> In z (F y) -> False) ->
  NoDup (flat_map F l).
Proof.
  induction l as [|a l IH]; intros Hnd H1 H2; cbn [flat_map]; [constructor|].
  inversion Hnd as [|? ? Ha Hl]; subst.
  apply NoDup_app_intro.
  - apply H1. left. reflexivity.
  - apply IH; [exact Hl | intros x Hx; apply H1; right; exact Hx | intros x y z Hx Hy; apply H2; right; assumption].
  - intros z Hz Hz'. apply in_flat_map in Hz' as [y [Hy Hzy]].
    apply (H2 a y z); [left; reflexivity | right; exact Hy | intro; subst; contradiction | exact Hz | exact Hzy].
Qed.

Lemma walk_spec_under : forall fuel f (p q : path) k, In (q, k) (W.walk_spec p (tree_of fuel f p)) -> exists r, r <> [] /\ q = p ++ r.
Proof.
  intros fuel f p q k H.
  destruct (fget f p) as [[mt d| |t sk]|] eqn:Ep.
  - destruct fuel; cbn [tree_of] in H; rewrite Ep in H; contradiction.
  - destruct fuel.
    + cbn [tree_of] in H. rewrite Ep in H. contradiction.
    + assert (Hgen : forall fuel (p : path), fget f p = Some NFolder ->
                     forall (q : path) k, In (q, k) (W.walk_spec p (tree_of fuel f p)) -> exists r, r <> [] /\ q = p ++ r).
      { clear. induction fuel as [|fuel IH]; intros p Hp q k H; cbn [tree_of] in H; rewrite Hp in H; [contradiction|].
        rewrite walk_spec_children in H. apply in_flat_map in H as (n & _ & Hin). unfold child_part in Hin.
        destruct (negb (incl (p ++ [n]))); [contradiction|].
        destruct (fget f (p ++ [n])) as [[mt d| |t sk]|] eqn:En.
        - destruct fuel; cbn [tree_of] in Hin; rewrite En in Hin; destruct Hin as [Heq|[]]; inversion Heq; exists [n]; split; [discriminate|reflexivity|discriminate|reflexivity].
        - destruct (tree_of_folder fuel f _ En) as [ch E]. rewrite E in Hin. rewrite <- E in Hin. destruct Hin as [Heq|Hin].
          + inversion Heq. exists [n]. split; [discriminate|reflexivity].
          + apply (IH _ En) in Hin as (r & Hr & ->). exists (n :: r). split; [discriminate|apply snoc_app_assoc].
        - destruct fuel; cbn [tree_of] in Hin; rewrite En in Hin; destruct Hin as [Heq|[]]; inversion Heq; exists [n]; split; [discriminate|reflexivity|discriminate|reflexivity].
        - destruct fuel; cbn [tree_of] in Hin; rewrite En in Hin; contradiction. }
      exact (Hgen (S fuel) p Ep q k H).
  - destruct fuel; cbn [tree_of] in H; rewrite Ep in H; contradiction.
  - destruct fuel; cbn [tree_of] in H; rewrite Ep in H; contradiction.
Qed.

Lemma in_map_fst_walk {l : list W.entry} {q : path} : In q (map fst l) -> exists k, In (q, k) l.
Proof. intros H. apply in_map_iff in H as [[q' k] [E Hin]]. cbn [fst] in E. subst q'. exists k. exact Hin. Qed.

Lemma walk_tree_nodup : forall fuel f (p : path), NoDup (map fst (W.walk_spec p (tree_of fuel f p))).
Proof.
  induction fuel as [|fuel IH]; intros f p.
  - cbn [tree_of]. destruct (fget f p) as [[mt d| |t sk]|]; cbn; constructor.
  - cbn [tree_of]. destruct (fget f p) as [[mt d| |t sk]|] eqn:Ep; try (cbn; constructor).
    rewrite walk_spec_children.
    rewrite flat_map_concat_map, concat_map, map_map, <- flat_map_concat_map.
    assert (Hpre : forall n z, In z (map fst (child_part f fuel p n)) -> exists r, z = (p ++ [n]) ++ r).
    { intros n z Hz. apply in_map_fst_walk in Hz as [k Hz]. unfold child_part in Hz.
      destruct (negb (incl (p ++ [n]))); [contradiction|].
      destruct (tree_of fuel f (p ++ [n])) as [[| | |]|rd ch] eqn:E.
      - destruct Hz as [Heq|[]]. inversion Heq. exists []. rewrite app_nil_r. reflexivity.
      - destruct Hz as [Heq|[]]. inversion Heq. exists []. rewrite app_nil_r. reflexivity.
      - destruct Hz as [Heq|[]]. inversion Heq. exists []. rewrite app_nil_r. reflexivity.
      - contradiction.
      - destruct Hz as [Heq|Hz]; [inversion Heq; exists []; rewrite app_nil_r; reflexivity|].
        rewrite <- E in Hz. apply walk_spec_under in Hz as (r & _ & ->). exists r. reflexivity. }
    apply nodup_flat_map.
    + apply NoDup_nodup.
    + intros n _. unfold child_part. destruct (negb (incl (p ++ [n]))); [constructor|].
      destruct (tree_of fuel f (p ++ [n])) as [[| | |]|rd ch] eqn:E; cbn [map fst]; try (repeat constructor; intros []).
      rewrite <- E. constructor; [|apply IH].
      intros Hin. apply in_map_fst_walk in Hin as [k Hin]. apply walk_spec_under in Hin as (r & Hr & Hq).
      rewrite <- (app_nil_r (p ++ [n])) in Hq at 1. apply app_inv_head in Hq. congruence.
    + intros x y z _ _ Hxy Hx Hy. apply Hpre in Hx as [r1 ->]. apply Hpre in Hy as [r2 E].
      rewrite !snoc_app_assoc in E. apply app_inv_head in E. inversion E. contradiction.
Qed.

Lemma strict_prefix_split (a b : path) : is_strict_prefix a b = true <-> exists c, c <> [] /\ b = a ++ c.
Proof.
  rewrite strict_prefix_iff. split.
  - intros (k & Hk & ->). exists (skipn k b). split.
    + intros E. apply (f_equal (@length _)) in E. rewrite skipn_length in E. cbn in E. lia.
    + symmetry. apply firstn_skipn.
  - intros (c & Hc & ->). exists (length a). split.
    + rewrite app_length. destruct c; [congruence|]. cbn [length]. lia.
    + rewrite firstn_app, Nat.sub_diag, firstn_all. cbn [firstn]. rewrite app_nil_r. reflexivity.
Qed.

Lemma below_root_visible f q k :
  below f [] q k <-> visible incl f q = true /\ exists n, fget f q = Some n /\ k = kind_of_node n.
Proof.
  unfold below. rewrite visible_iff. cbn [app]. split.
  - intros (r & Hr & -> & Hi & Hc & Hn). split; [|exact Hn]. split; [exact Hr|]. split; [exact Hi|].
    intros q' Hq' Hs. apply strict_prefix_split in Hs as (c & Hcne & ->). exact (Hc q' c eq_refl Hq' Hcne).
  - intros [(Hne & Hi & Hc) Hn]. exists q. split; [exact Hne|]. split; [reflexivity|]. split; [exact Hi|]. split; [|exact Hn].
    intros r1 r2 -> H1 H2. apply Hc; [exact H1|]. apply strict_prefix_split. exists r2. split; [exact H2|reflexivity].
Qed.

(* The reference walk of the tree of f: exactly the visible entries, with their kinds. *)
Theorem walk_tree_visible f : fget f [] = Some NFolder -> forall q k,
  In (q, k) (W.walk_spec [] (tree_of_fs f)) <->
  visible incl f q = true /\ exists n, fget f q = Some n /\ k = kind_of_node n.
Proof.
  intros Hroot q k. unfold tree_of_fs. rewrite walk_tree_below; [apply below_root_visible| |exact Hroot].
  intros q' Hq'. cbn [length]. rewrite Nat.add_0_l. apply key_depth. exact Hq'.
Qed.

(* the model fs has no unreadable folders *)
Lemma walk_all_no_error : forall fuel f (p : path), fget f p = Some NFolder ->
  (forall n, In n (child_names f p) -> True) ->
  existsb W.is_err (W.walk_all p (tree_of fuel f p)) = false.
Proof.
  induction fuel as [|fuel IH]; intros f p Hp _; cbn [tree_of]; rewrite Hp; [reflexivity|].
  cbn [W.walk_all]. rewrite flat_map_concat_map, map_map, <- flat_map_concat_map.
  apply not_true_is_false. intros H. apply existsb_exists in H as (x & Hx & Hex).
  apply in_flat_map in Hx as (n & Hn & Hx). apply child_names_in in Hn.
  destruct (negb (incl (p ++ [n]))); [contradiction|].
  destruct (fget f (p ++ [n])) as [[mt d| |t sk]|] eqn:En.
  - destruct fuel; cbn [tree_of] in Hx; rewrite En in Hx; destruct Hx as [<-|[]]; discriminate.
  - destruct (tree_of_folder fuel f _ En) as [ch E]. rewrite E in Hx. rewrite <- E in Hx.
    destruct Hx as [<-|Hx]; [discriminate|].
    specialize (IH f (p ++ [n]) En (fun _ _ => I)).
    apply not_true_iff_false in IH. apply IH. apply existsb_exists. exists x. split; assumption.
  - destruct fuel; cbn [tree_of] in Hx; rewrite En in Hx; destruct Hx as [<-|[]]; discriminate.
  - apply key_fget in Hn as [m Hm]. congruence.
Qed.

Theorem tree_of_fs_readable f : fget f [] = Some NFolder -> W.has_error (tree_of_fs f) = false.
Proof. intros H. unfold W.has_error, tree_of_fs. apply walk_all_no_error; [exact H|auto]. Qed.

Variable now_z : N -> Z.
Variable normalize : str -> target.
Notation entry_of := (entry_of now_z normalize).
Notation valid_listing := (valid_listing now_z incl normalize).

(* the entry details the doer adds to what the walk found (doer.rs handle_get_entries) *)
Definition with_details (f : fs) (l : list W.entry) : listing :=
  flat_map (fun e : W.entry => match fget f (fst e) with Some n => [(fst e, entry_of n)] | None => [] end) l.

Lemma with_details_in f l p e :
  In (p, e) (with_details f l) <-> exists k n, In (p, k) l /\ fget f p = Some n /\ e = entry_of n.
Proof.
  unfold with_details. rewrite in_flat_map. split.
  - intros [[q k] [Hin H]]. cbn [fst] in H. destruct (fget f q) as [n|] eqn:E; [|contradiction].
    destruct H as [Heq|[]]. inversion Heq; subst. exists k, n. auto.
  - intros (k & n & Hin & Hn & ->). exists (p, k). split; [exact Hin|]. cbn [fst]. rewrite Hn. left. reflexivity.
Qed.

Lemma with_details_keys f l :
  (forall q k, In (q, k) l -> exists n, fget f q = Some n) -> lkeys (with_details f l) = map fst l.
Proof.
  induction l as [|[q k] l IH]; intros H; [reflexivity|]. unfold with_details, lkeys in *. cbn [flat_map fst map].
  destruct (H q k (or_introl eq_refl)) as [n Hn]. rewrite Hn. cbn [app map fst]. f_equal.
  apply IH. intros q' k' Hin. apply (H q' k'). right. exact Hin.
Qed.

Theorem permuted_walk_valid f l :
  fget f [] = Some NFolder ->
  Permutation l (W.walk_spec [] (tree_of_fs f)) -> W.ancestors_first l ->
  valid_listing f (with_details f l) /\ parents_first (lkeys (with_details f l)).
Proof.
  intros Hroot Hperm Hanc.
  assert (Hmem : forall q k, In (q, k) l <-> visible incl f q = true /\ exists n, fget f q = Some n /\ k = kind_of_node n).
  { intros q k. rewrite <- (walk_tree_visible f Hroot). split; apply Permutation_in; [exact Hperm|apply Permutation_sym; exact Hperm]. }
  assert (Hsome : forall q k, In (q, k) l -> exists n, fget f q = Some n).
  { intros q k H. apply Hmem in H as [_ (n & Hn & _)]. exists n. exact Hn. }
  assert (Hkeys := with_details_keys f l Hsome).
  assert (Hnd : NoDup (map fst l)).
  { apply (Permutation_NoDup (l := map fst (W.walk_spec [] (tree_of_fs f)))); [apply Permutation_map, Permutation_sym, Hperm|].
    apply walk_tree_nodup. }
  split; [split; [|split]|].
  - rewrite Hkeys. exact Hnd.
  - rewrite Hkeys. intros H. apply in_map_fst_walk in H as [k H]. apply Hmem in H as [Hv _].
    unfold visible in Hv. discriminate.
  - intros p e. rewrite with_details_in. split.
    + intros (k & n & Hin & Hn & ->). apply Hmem in Hin as [Hv _]. split; [exact Hv|]. exists n. auto.
    + intros [Hv (n & Hn & ->)]. exists (kind_of_node n), n. split; [|auto]. apply Hmem. split; [exact Hv|]. exists n. auto.
  - rewrite Hkeys. intros a b Ha Hb Hs.
    apply strict_prefix_split in Hs as (c & Hc & ->).
    assert (Hane : a <> []).
    { intros ->. apply in_map_fst_walk in Ha as [k Ha]. apply Hmem in Ha as [Hv _]. unfold visible in Hv. discriminate. }
    apply in_map_fst_walk in Hb as [k Hb]. apply in_split in Hb as (x & y & ->).
    specialize (Hanc x y a c k eq_refl Hane Hc).
    rewrite map_app. cbn [map fst]. apply before_app_r.
    + change a with (fst (a, W.KDir)). apply in_map. exact Hanc.
    + left. reflexivity.
Qed.

(* Whatever the number of workers, the capacity of the result queue and the interleaving: when the
   consumer of the walk over the tree of f sees the end-of-list marker, what it has received, completed
   with the entry details, is a valid listing of f, parents first. *)
Theorem walker_listing_valid f N C s :
  N >= 1 -> fget f [] = Some NFolder ->
  W.reach N C (tree_of_fs f) s -> W.cons s = W.CEos ->
  valid_listing f (with_details f (W.recvd s)) /\ parents_first (lkeys (with_details f (W.recvd s))).
Proof.
  intros HN Hroot Hreach Heos.
  destruct (WalkerProofs.eos_exactly_once N C HN _ s Hreach Heos) as [_ Hperm].
  apply permuted_walk_valid; [exact Hroot|exact Hperm|].
  exact (WalkerProofs.reach_ancestors_first N C _ s Hreach).
Qed.

(* ... and such an end is reached by every execution that runs until nothing is enabled. *)
Theorem walker_run_ends_with_listing f N C s :
  N >= 1 -> C >= 1 -> fget f [] = Some NFolder ->
  W.reach N C (tree_of_fs f) s -> (forall s', ~ W.step N C s s') ->
  W.cons s = W.CEos /\ valid_listing f (with_details f (W.recvd s)) /\ parents_first (lkeys (with_details f (W.recvd s))).
Proof.
  intros HN HC Hroot Hreach Hstuck.
  destruct (WalkerProofs.stuck_outcome N C HN HC _ s Hreach Hstuck) as [(_ & Heos & _)|(Herr & _)].
  - split; [exact Heos|]. apply (walker_listing_valid f N C s HN Hroot Hreach Heos).
  - rewrite (tree_of_fs_readable f Hroot) in Herr. discriminate.
Qed.
End Bridge.
