(* C08 at the level of a whole sync: the steps sync_one performs have the shape Proofs/CrashProofs.v
   needs, so every state a kill can leave behind - and the final state of every run, failed or not -
   satisfies the invariant "a time-stamped file is the original one or holds the source's complete bytes". *)
From RJ Require Import Base.Prelude Base.OrderedPlan Model.Settings Model.Core Model.Fs Model.Sync
  Proofs.FsProofs Proofs.SyncProofs Proofs.ExecProofs Proofs.CrashProofs.

Section CrashMain.
Variable now_z : N -> Z.
Variable normalize : str -> target.
Variable chunker : str -> list str.
Hypothesis chunker_ok : forall d, chunker d <> [] /\ concat (chunker d) = d.

Notation sync_one := (sync_one now_z normalize chunker).
Notation entry_of := (entry_of now_z normalize).
Notation exec_steps := (exec_steps chunker).
Notation copy_steps := (copy_steps chunker).

Lemma plan_ok_app S a : plan_ok S a -> forall b, plan_ok S b -> plan_ok S (a ++ b).
Proof.
  unfold plan_ok.
  induction 1 as [|c rest Hc Hk Hrest IH|q rest Hrest IH|p mt chunks m rest Hne HS Hk Hrest IH]; intros b Hb; cbn [app].
  - exact Hb.
  - apply pk_cmd; auto.
  - apply pk_fetch; auto.
  - rewrite <- app_assoc. eapply pk_file; eauto.
Qed.

Lemma copy_steps_ok S e : plan_ok S (copy_steps S e).
Proof.
  unfold plan_ok. destruct e as [p [[mt sz| |k t] r]]; cbn [Sync.copy_steps].
  - destruct (fget S p) as [[m data| |tt kk]|] eqn:E; try (apply pk_fetch; apply pk_nil).
    apply pk_fetch. rewrite <- (app_nil_r (chunk_cmds p mt (chunker data))).
    destruct (chunker_ok data) as [Hne Hcat].
    apply (pk_file S any_cmd any_file p mt (chunker data) m []); [exact Hne|rewrite Hcat; exact E|exact I|apply pk_nil].
  - apply pk_cmd; [reflexivity|exact I|apply pk_nil].
  - apply pk_cmd; [reflexivity|exact I|apply pk_nil].
Qed.

Lemma exec_steps_ok S a : plan_ok S (exec_steps S a).
Proof.
  unfold Sync.exec_steps. apply plan_ok_app.
  - unfold plan_ok. induction (a_delete a) as [|e l IH]; cbn [map]; [apply pk_nil|].
    apply pk_cmd; [|exact I|exact IH]. destruct e as [p [[mt sz| |k t] r]]; reflexivity.
  - induction (a_copy a) as [|e l IH]; cbn [flat_map]; [apply (pk_nil S any_cmd any_file)|].
    apply plan_ok_app; [apply copy_steps_ok|exact IH].
Qed.

(* The steps a run performs, read off sync_one's control flow (root gate, plan, confirmation, dry run). *)
Definition sync_plan (cfg : config) (S : fs) (D : dstate) (ans : list answer) (bits : list bool)
           (ls ld : list (path * entry)) : rstate * list bstep :=
  let idle := (mkR D [] [] [] false 0 0 None, []) in
  match fget S [] with
  | None => idle
  | Some sn =>
    let sroot := entry_of sn in
    let droot := option_map entry_of (fget (d_fs D) []) in
    let gate : option (list answer) :=
      match droot with
      | Some d => if needs_delete (cf_diff cfg) sroot d then
                    match resolve_root (cf_root cfg) ans with
                    | (BAct, ans', _) => Some ans'
                    | _ => None
                    end
                  else Some ans
      | None => Some ans
      end in
    match gate with
    | None => idle
    | Some ans1 =>
      let pre := match droot with None => if cf_dry cfg then [] else [DestCmd CCreateRootAncestors] | Some _ => [] end in
      let src_listing := match sroot with EFolder => ls | _ => [] end in
      let dest_listing := match droot with Some EFolder => ld | _ => [] end in
      let src_trace0 := CSetRoot :: match sroot with EFolder => [CGetEntries] | _ => [] end in
      let dest_trace0 := CSetRoot :: match droot with Some EFolder => [CGetEntries] | _ => [] end in
      let arrivals := FromSrc path entry [] sroot ::
                      match droot with Some d => [FromDest path entry [] d] | None => [] end ++
                      interleave bits src_listing dest_listing in
      let same_skip := beh_eqb (b_same (cf_b cfg)) BSkip in
      let r0 := mkR D dest_trace0 src_trace0 [] false 0 0 None in
      match actions_of (cf_diff cfg) same_skip arrivals with
      | None => (r0, pre)
      | Some acts =>
        match confirm (cf_b cfg) ans1 acts with
        | CFail => (r0, pre)
        | CDone acts' _ _ _ _ => if cf_dry cfg then (r0, pre) else (r0, pre ++ exec_steps S acts')
        end
      end
    end
  end.

Lemma plan_gate diff root sroot droot ans :
  match droot with
  | Some d => if needs_delete diff sroot d then
                match resolve_root root ans with
                | (BAct, ans', _) => Some ans'
                | _ => None
                end
              else Some ans
  | None => Some ans
  end = match root_gate diff root sroot droot ans with inl (ans1, _) => Some ans1 | inr _ => None end.
Proof.
  unfold root_gate. destruct droot as [d|]; [|reflexivity]. destruct (needs_delete diff sroot d); [|reflexivity].
  destruct (resolve_root root ans) as [[[] ans'] shown]; reflexivity.
Qed.

Lemma sync_one_plan cfg S D ans bits ls ld ft :
  sync_case now_z normalize chunker cfg S D ans bits ls ld ft (sync_plan cfg S D ans bits ls ld) (sync_one cfg S D ans bits ls ld ft).
Proof.
  destruct (sync_one_cases now_z normalize chunker cfg S D ans bits ls ld ft) as (pl & Hc).
  replace (sync_plan cfg S D ans bits ls ld) with pl; [exact Hc|]. unfold sync_plan.
  destruct Hc as [Hs|sn skip np Hs Hg|sn ans1 np1 steps r' Hs Hg Hp]; rewrite Hs; [reflexivity| |];
    cbv zeta; rewrite plan_gate, Hg; [reflexivity|].
  destruct Hp as [Ha|acts Ha Hc|acts acts' sk b2 a2 np Ha Hc Hd|acts acts' sk b2 a2 np Ha Hc Hd]; unfold arrivals in Ha;
    rewrite Ha; try rewrite Hc; try rewrite Hd; rewrite ?app_nil_r; reflexivity.
Qed.

Lemma sync_plan_start cfg S D ans bits ls ld : rs_d (fst (sync_plan cfg S D ans bits ls ld)) = D.
Proof.
  (* the plan does not depend on the faults: it is read off the run that meets none *)
  destruct (sync_one_plan cfg S D ans bits ls ld no_faults); reflexivity.
Qed.

Lemma sync_plan_ok cfg S D ans bits ls ld : plan_ok S (snd (sync_plan cfg S D ans bits ls ld)).
Proof.
  destruct (sync_one_plan cfg S D ans bits ls ld no_faults) as [Hs|sn skip np Hs Hg|sn ans1 np1 steps r Hs Hg Hp];
    try apply (pk_nil S any_cmd any_file).
  apply plan_ok_app.
  - destruct (start_steps_shape (cf_dry cfg) (option_map entry_of (fget (d_fs D) []))) as [-> | ->];
      [apply (pk_nil S any_cmd any_file)|apply pk_cmd; [reflexivity|exact I|apply pk_nil]].
  - destruct Hp; try apply (pk_nil S any_cmd any_file). apply exec_steps_ok.
Qed.

Lemma sync_one_runs_plan cfg S D ans bits ls ld ft :
  r_dest (sync_one cfg S D ans bits ls ld ft) =
  rs_d (run_steps (cf_fl cfg) ft (fst (sync_plan cfg S D ans bits ls ld)) (snd (sync_plan cfg S D ans bits ls ld))).
Proof.
  destruct (sync_one_plan cfg S D ans bits ls ld ft) as [Hs|sn skip np Hs Hg|sn ans1 np1 steps r Hs Hg Hp]; try reflexivity.
  cbn [fst snd]. rewrite <- start_then. destruct Hp; reflexivity.
Qed.

(* every state of the destination a kill can leave behind during this sync *)
Definition sync_kill_states (cfg : config) (S : fs) (D : dstate) (ans : list answer) (bits : list bool)
           (ls ld : list (path * entry)) (ft : faults) : list dstate :=
  steps_states (cf_fl cfg) ft (fst (sync_plan cfg S D ans bits ls ld)) (snd (sync_plan cfg S D ans bits ls ld)).

Theorem crash_safe cfg S D ans bits ls ld ft :
  d_open D = None ->
  (forall s, In s (sync_kill_states cfg S D ans bits ls ld ft) -> no_through (d_events s) -> Good S (d_fs D) s) /\
  (no_through (d_events (r_dest (sync_one cfg S D ans bits ls ld ft))) ->
   Good S (d_fs D) (r_dest (sync_one cfg S D ans bits ls ld ft))).
Proof.
  intros Ho.
  assert (HJ : J ft S (d_fs D) (fst (sync_plan cfg S D ans bits ls ld))).
  { intros _. rewrite sync_plan_start. split; [intros q t d Hq; left; exact Hq|left; exact Ho]. }
  destruct (plan_safe (cf_fl cfg) ft S (d_fs D) _ (sync_plan_ok cfg S D ans bits ls ld) _ HJ) as [G1 G2].
  split; [exact G1|]. intros Hnt. rewrite sync_one_runs_plan in *. apply G2. exact Hnt.
Qed.

End CrashMain.

From RJ Require Import Spec.PlanSpec Spec.Mirror Proofs.MirrorProofs.

Section Rerun.
Variable now_z : N -> Z.
Variable incl : path -> bool.
Variable normalize : str -> target.
Variable chunker : str -> list str.
Hypothesis chunker_ok : forall d, chunker d <> [] /\ concat (chunker d) = d.

(* what the next run finds: the tree as the interrupted run left it, and a fresh doer *)
Definition reboot (s : dstate) : dstate := mkD (d_fs s) (d_anc s) (d_tick s) None [] (mkX None [] 0 []).

(* A damaged file can never pass for an up-to-date one ... *)
Lemma good_no_damage S D0 s p t b d :
  Good S D0 s -> fget S p = Some (NFile (TSet t) b) -> fget (d_fs s) p = Some (NFile (TSet t) d) ->
  d = b \/ fget D0 p = Some (NFile (TSet t) d).
Proof.
  intros HG HS Hs. destruct (HG p t d Hs) as [H|(m & H)]; [right; exact H|left]. rewrite HS in H. inversion H; reflexivity.
Qed.

(* the file clause of a mirror, once the state the repair run started from satisfies Good *)
Lemma mirror_files_repaired dest_fl diff S D0 s D' :
  Good S D0 s ->
  mirror now_z incl normalize diff dest_fl S (d_fs s) D' ->
  forall p t b, takes_part incl S p -> fget S p = Some (NFile (TSet t) b) -> (forall k, now_z k <> t) ->
    fget D' p = Some (NFile (TSet t) b) \/
    exists b0, fget D0 p = Some (NFile (TSet t) b0) /\ fget D' p = Some (NFile (TSet t) b0).
Proof.
  intros HG Hm p t b Htp HS Hnow.
  destruct (Hm p) as [Hat _].
  assert (Hne : fget S p <> None) by (rewrite HS; discriminate).
  specialize (Hat (or_introl (conj Htp Hne))).
  unfold mirror_at in Hat. rewrite HS in Hat. destruct Hat as [Hat|(b0 & m0 & Hs & Hst & Hsame)]; [left; exact Hat|].
  destruct m0 as [t0|k]; cbn [stamp_z] in Hst.
  - subst t0. rewrite Hsame, Hs. destruct (good_no_damage S D0 s p t b b0 HG HS Hs) as [->|HD0]; [left; reflexivity|].
    right. exists b0. split; [exact HD0|reflexivity].
  - exfalso. apply (Hnow k). exact Hst.
Qed.

(* ... so the same sync, run again from whatever state the interruption left (a fresh doer D2 on the same
   tree; any answers, any interleaving, any listing order, even further faults, as long as it returns Ok
   without skips), puts the complete source file in place - unless the file already carried the source's
   time before the first run, which is C01's own exemption. *)
Theorem rerun_repairs_from dest_fl cfg S D0 s D2 ans bits ls ld ft :
  Good S D0 s -> d_fs D2 = d_fs s -> d_open D2 = None ->
  valid_listing now_z incl normalize S ls -> valid_listing now_z incl normalize (d_fs s) ld ->
  wf_fs S -> src_times_set S -> links_roundtrip normalize dest_fl S ->
  let r := sync_one now_z normalize chunker cfg S D2 ans bits ls ld ft in
  r_ok r = true -> r_skipped r = [] -> r_root_skipped r = false -> cf_dry cfg = false ->
  no_through (d_events (r_dest r)) -> cf_fl cfg = dest_fl ->
  mirror now_z incl normalize (cf_diff cfg) dest_fl S (d_fs s) (d_fs (r_dest r)) /\
  forall p t b, takes_part incl S p -> fget S p = Some (NFile (TSet t) b) -> (forall k, now_z k <> t) ->
    fget (d_fs (r_dest r)) p = Some (NFile (TSet t) b) \/
    exists b0, fget D0 p = Some (NFile (TSet t) b0) /\ fget (d_fs (r_dest r)) p = Some (NFile (TSet t) b0).
Proof.
  intros HG Hfs Ho Hls Hld HwS Hts Hlr r Hok Hsk Hrs Hdry Hnt Hfl.
  assert (Hm : mirror now_z incl normalize (cf_diff cfg) dest_fl S (d_fs s) (d_fs (r_dest r))).
  { rewrite <- Hfs. apply (mirror_theorem now_z incl normalize chunker chunker_ok dest_fl cfg S D2 ans bits ls ld ft); auto.
    rewrite Hfs. exact Hld. }
  split; [exact Hm|]. eapply mirror_files_repaired; eauto.
Qed.

Theorem rerun_repairs dest_fl cfg S D0 s ans bits ls ld ft :
  Good S D0 s ->
  valid_listing now_z incl normalize S ls -> valid_listing now_z incl normalize (d_fs s) ld ->
  wf_fs S -> src_times_set S -> links_roundtrip normalize dest_fl S ->
  let r := sync_one now_z normalize chunker cfg S (reboot s) ans bits ls ld ft in
  r_ok r = true -> r_skipped r = [] -> r_root_skipped r = false -> cf_dry cfg = false ->
  no_through (d_events (r_dest r)) -> cf_fl cfg = dest_fl ->
  mirror now_z incl normalize (cf_diff cfg) dest_fl S (d_fs s) (d_fs (r_dest r)) /\
  forall p t b, takes_part incl S p -> fget S p = Some (NFile (TSet t) b) -> (forall k, now_z k <> t) ->
    fget (d_fs (r_dest r)) p = Some (NFile (TSet t) b) \/
    exists b0, fget D0 p = Some (NFile (TSet t) b0) /\ fget (d_fs (r_dest r)) p = Some (NFile (TSet t) b0).
Proof. intros HG. apply (rerun_repairs_from dest_fl cfg S D0 s (reboot s)); auto. Qed.

End Rerun.
