(* F9: the code before the fix panics on malformed input - evaluation of the original model (add_pe0, extract_pe0,
   add_elf0, extract_elf0) on the witnesses.  And the section name the program uses (Gen/Facts.v) meets the premises that
   the round-trip theorems put on a name. *)
From RJ Require Import Base.Prelude Model.LE Model.Elf Model.Pe Model.ExeWitness Gen.Facts.
From Coq Require Import String.
Local Open Scope N_scope.

Lemma refuted_both_modes : forall m : mode,
  add_pe0 m w_pe_fa0 w_name w_abc = Panic (slit "div") /\
  add_pe0 m w_pe_trunc w_name w_abc = Panic (slit "index") /\
  extract_pe0 m w_pe_split w_name_s0 = Panic (slit "split") /\
  add_elf0 m w_elf_names_out w_name w_abc = Panic (slit "index") /\
  extract_elf0 m w_elf_split w_name_text = Panic (slit "split").
Proof. intros []; vm_compute; repeat split; reflexivity. Qed.

Lemma refuted_by_mode :
  add_pe0 Debug w_pe_nosec w_name w_abc = Panic (slit "sub") /\ is_ok (add_pe0 Release w_pe_nosec w_name w_abc) = true /\
  add_pe0 Debug w_pe_empty w_name [] = Panic (slit "sub") /\ is_ok (add_pe0 Release w_pe_empty w_name []) = true /\
  add_pe0 Debug w_pe_ffff w_name w_abc = Panic (slit "add") /\
  extract_elf0 Debug w_elf_shoff_max w_name_text = Panic (slit "add") /\ extract_elf0 Release w_elf_shoff_max w_name_text = Err eother /\
  add_elf0 Debug w_elf_shoff_wrap w_name w_abc = Panic (slit "add") /\ add_elf0 Release w_elf_shoff_wrap w_name w_abc = Panic (slit "split").
Proof. vm_compute; repeat split; reflexivity. Qed.

Lemma section_name_ok :
  lenN impl_section_name <= 8 /\ ~ In zero impl_section_name /\ impl_section_name <> [].
Proof.
  split; [vm_compute; discriminate|]. split; [|vm_compute; discriminate].
  vm_compute. intros H. repeat (destruct H as [H|H]; [discriminate H|]). exact H.
Qed.
