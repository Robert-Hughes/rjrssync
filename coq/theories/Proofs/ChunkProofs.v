(* Proofs about the chunked file transfer model (C11). *)
From RJ Require Import Base.Prelude Model.Chunk.
Local Open Scope N_scope.

Lemma lenN_acc_spec {A} (l : list A) (acc : N) : lenN_acc l acc = acc + N.of_nat (List.length l).
Proof.
  revert acc; induction l as [|x l IH]; intros acc; cbn [lenN_acc List.length].
  - lia.
  - rewrite IH. lia.
Qed.

Lemma lenN_spec {A} (l : list A) : lenN l = N.of_nat (List.length l).
Proof. unfold lenN. rewrite lenN_acc_spec. lia. Qed.

Lemma lenN_nil {A} : lenN (@nil A) = 0.
Proof. reflexivity. Qed.

Lemma lenN_cons {A} (x : A) l : lenN (x :: l) = 1 + lenN l.
Proof. rewrite !lenN_spec. cbn [List.length]. lia. Qed.

Lemma lenN_app {A} (a b : list A) : lenN (a ++ b) = lenN a + lenN b.
Proof. rewrite !lenN_spec, app_length. lia. Qed.

Lemma lenN_zero {A} (l : list A) : lenN l = 0 <-> l = [].
Proof.
  rewrite lenN_spec. destruct l as [|x l]; cbn [List.length]; split; intros H;
    try reflexivity; try discriminate; lia.
Qed.

Lemma split_at_spec {A} (l : list A) : forall n,
  split_at n l = (firstn (N.to_nat n) l, skipn (N.to_nat n) l).
Proof.
  induction l as [|x l IH]; intros n.
  - cbn [split_at]. now rewrite firstn_nil, skipn_nil.
  - cbn [split_at]. destruct (N.eqb_spec n 0) as [E|E].
    + subst n. reflexivity.
    + rewrite IH. replace (N.to_nat n) with (S (N.to_nat (N.pred n))) by lia. reflexivity.
Qed.

(* what the reader needs from one split *)
Lemma split_at_props {A} (l : list A) (n : N) a b :
  split_at n l = (a, b) -> 1 <= n <= lenN l ->
  a ++ b = l /\ lenN a = n /\ (List.length b < List.length l)%nat /\ a <> [].
Proof.
  intros Hs Hn. rewrite split_at_spec in Hs. inversion Hs; subst a b; clear Hs.
  rewrite lenN_spec in Hn.
  assert (Hl : List.length (firstn (N.to_nat n) l) = N.to_nat n)
    by (apply firstn_length_le; lia).
  repeat split.
  - apply firstn_skipn.
  - rewrite lenN_spec, Hl. lia.
  - rewrite skipn_length. lia.
  - intros E. rewrite E in Hl. cbn [List.length] in Hl. lia.
Qed.

Lemma read_len_zero buf avail ch : 1 <= buf -> (read_len buf avail ch = 0 <-> avail = 0).
Proof.
  intros Hb. unfold read_len. destruct (N.eqb_spec avail 0) as [E|E].
  - tauto.
  - destruct ch as [r|]; split; intros H; lia.
Qed.

Lemma read_len_bounds buf avail ch : 1 <= buf -> avail <> 0 ->
  1 <= read_len buf avail ch <= N.min buf avail.
Proof.
  intros Hb Ha. unfold read_len. destruct (N.eqb_spec avail 0) as [E|E]; [contradiction|].
  destruct ch as [r|]; lia.
Qed.

(* shape of a chunk sequence: more_to_follow is true, ..., true, false *)

Fixpoint flags_ok (cs : list chunk) : Prop :=
  match cs with
  | [] => False
  | c :: tl => match tl with
               | [] => snd c = false
               | _ :: _ => snd c = true /\ flags_ok tl
               end
  end.

Lemma flags_ok_nonnil cs : flags_ok cs -> cs <> [].
Proof. destruct cs; cbn [flags_ok]; [tauto | discriminate]. Qed.

Lemma flags_ok_cons c tl : tl <> [] -> (flags_ok (c :: tl) <-> snd c = true /\ flags_ok tl).
Proof. destruct tl as [|d tl]; [congruence|]. intros _. cbn [flags_ok]. tauto. Qed.

Lemma flags_ok_map cs : flags_ok cs ->
  map snd cs = repeat true (List.length cs - 1) ++ [false].
Proof.
  induction cs as [|c tl IH]; cbn [flags_ok]; [tauto|].
  destruct tl as [|d tl].
  - intros H. cbn. now rewrite H.
  - intros [H1 H2]. specialize (IH H2).
    change (map snd (c :: d :: tl)) with (snd c :: map snd (d :: tl)). rewrite IH, H1.
    cbn [List.length]. replace (S (S (List.length tl)) - 1)%nat with (S (S (List.length tl) - 1)) by lia.
    reflexivity.
Qed.

Definition total (cs : list chunk) : N := lenN (concat (map fst cs)).

Lemma total_cons c tl : total (c :: tl) = lenN (fst c) + total tl.
Proof. unfold total. cbn [map concat]. apply lenN_app. Qed.

Definition chunk_small (c : chunk) : Prop := lenN (fst c) <= max_chunk.
Definition chunk_nonempty (c : chunk) : Prop := fst c <> [].

(* one iteration of the loop: at end of file it sends [prev] and stops; otherwise it reads a non-empty [data],
   sends a non-empty [prev] and goes on with [data] as the new [prev] *)
Lemma read_loop_eof fuel cs buf prev rest sched : read_len buf (lenN rest) (hd_error sched) = 0 ->
  read_loop (S fuel) cs buf prev rest sched = Some [(prev, false)].
Proof. intros En. cbn [read_loop]. fold (hd_error sched). rewrite En. reflexivity. Qed.

Lemma read_loop_more fuel cs buf prev rest sched :
  1 <= buf <= max_chunk -> 1 <= cs -> read_len buf (lenN rest) (hd_error sched) <> 0 ->
  exists data rest' cs2 buf2,
    read_loop (S fuel) cs buf prev rest sched =
      option_map (app (if is_nil prev then [] else [(prev, true)])) (read_loop fuel cs2 buf2 data rest' (tl sched)) /\
    data ++ rest' = rest /\ lenN data = read_len buf (lenN rest) (hd_error sched) /\ lenN data <= max_chunk /\
    (List.length rest' < List.length rest)%nat /\ data <> [] /\ 1 <= buf2 <= max_chunk /\ 1 <= cs2.
Proof.
  intros Hbuf Hcs En. cbn [read_loop]. fold (hd_error sched) (tl sched).
  set (n := read_len buf (lenN rest) (hd_error sched)) in *.
  destruct (N.eqb_spec n 0) as [E|_]; [contradiction|].
  assert (Hrest : lenN rest <> 0).
  { intros E. apply En. apply read_len_zero; [lia | exact E]. }
  pose proof (read_len_bounds buf (lenN rest) (hd_error sched) ltac:(lia) Hrest) as Hn. fold n in Hn.
  destruct (split_at n rest) as [data rest'] eqn:Hs.
  destruct (split_at_props rest n data rest' Hs ltac:(lia)) as (Happ & Hlen & Hshort & Hne).
  exists data, rest'. destruct (n <? buf).
  - exists cs, short_buf. split; [reflexivity|]. unfold short_buf, max_chunk in *. repeat split; try assumption; lia.
  - exists (N.min (cs * 2) max_chunk), (N.min (cs * 2) max_chunk). split; [reflexivity|].
    unfold max_chunk in *. repeat split; try assumption; lia.
Qed.

Lemma read_loop_spec : forall fuel cs buf prev rest sched,
  (List.length rest < fuel)%nat -> 1 <= buf <= max_chunk -> 1 <= cs -> lenN prev <= max_chunk ->
  exists out, read_loop fuel cs buf prev rest sched = Some out /\
    concat (map fst out) = prev ++ rest /\
    flags_ok out /\
    Forall chunk_small out /\
    (prev ++ rest <> [] -> Forall chunk_nonempty out) /\
    (prev ++ rest = [] -> out = [([], false)]) /\
    (rest = [] -> out = [(prev, false)]) /\
    (rest <> [] -> prev <> [] -> (2 <= List.length out)%nat).
Proof.
  induction fuel as [|fuel IH]; intros cs buf prev rest sched Hfuel Hbuf Hcs Hprev; [lia|].
  destruct (N.eq_dec (read_len buf (lenN rest) (hd_error sched)) 0) as [En|En].
  - (* end of file *)
    rewrite (read_loop_eof _ _ _ _ _ _ En).
    apply read_len_zero in En; [|lia]. apply lenN_zero in En. subst rest.
    exists [(prev, false)]. rewrite app_nil_r. cbn [map concat fst flags_ok snd].
    rewrite app_nil_r. repeat split.
    + constructor; [exact Hprev | constructor].
    + intros Hne. constructor; [exact Hne | constructor].
    + intros ->. reflexivity.
    + congruence.
  - destruct (read_loop_more fuel cs buf prev rest sched Hbuf Hcs En)
      as (data & rest' & cs2 & buf2 & -> & Happ & _ & Hlen & Hshort & Hne & Hbuf2 & Hcs2).
    destruct (IH cs2 buf2 data rest' (tl sched) ltac:(lia) Hbuf2 Hcs2 Hlen)
      as (out & Hout & Hcat & Hfl & Hsm & Hnonempty & _ & _ & _).
    assert (Hrn : rest <> []) by (intros ->; apply En; reflexivity).
    rewrite Hout. cbn [option_map].
    assert (Hdr : data ++ rest' <> []) by (destruct data; [congruence | discriminate]).
    specialize (Hnonempty Hdr).
    destruct prev as [|p prev]; cbn [is_nil].
    + exists out. cbn [app]. rewrite Hcat, Happ. repeat split; auto; try congruence.
    + exists ((p :: prev, true) :: out). cbn [app]. repeat split.
      * cbn [map concat fst]. rewrite Hcat, Happ. reflexivity.
      * apply flags_ok_cons; [now apply flags_ok_nonnil | split; [reflexivity | exact Hfl]].
      * constructor; [exact Hprev | exact Hsm].
      * intros _. constructor; [discriminate | exact Hnonempty].
      * discriminate.
      * congruence.
      * intros _ _. apply flags_ok_nonnil in Hfl. destruct out; [congruence | cbn [List.length]; lia].
Qed.

Definition chunks_spec (file : bytes) (cs : list chunk) : Prop :=
  concat (map fst cs) = file /\
  map snd cs = repeat true (List.length cs - 1) ++ [false] /\
  Forall chunk_small cs /\
  (file <> [] -> Forall chunk_nonempty cs) /\
  (file = [] -> cs = [([], false)]).

Lemma read_chunks_spec file sched :
  exists cs, read_chunks file sched = Some cs /\ flags_ok cs /\ chunks_spec file cs.
Proof.
  unfold read_chunks, chunks_spec.
  destruct (read_loop_spec (S (List.length file)) first_buf first_buf [] file sched)
    as (out & Hout & Hcat & Hfl & Hsm & Hne & Hnil & _ & _).
  - lia.
  - unfold first_buf, max_chunk. lia.
  - unfold first_buf. lia.
  - rewrite lenN_nil. unfold max_chunk. lia.
  - exists out. cbn [app] in *. repeat split; auto. now apply flags_ok_map.
Qed.

Lemma C11_chunks_proof file sched : exists cs, read_chunks file sched = Some cs /\ chunks_spec file cs.
Proof. destruct (read_chunks_spec file sched) as (cs & H & _ & Hs). eauto. Qed.

(* how many chunks: exactly one iff the file is empty or the first read returned all of it *)

Lemma read_chunks_one_chunk file sched cs :
  read_chunks file sched = Some cs ->
  (List.length cs = 1%nat <->
   file = [] \/ read_len first_buf (lenN file) (hd_error sched) = lenN file).
Proof.
  unfold read_chunks. assert (Hb : 1 <= first_buf <= max_chunk) by (unfold first_buf, max_chunk; lia).
  destruct (N.eq_dec (read_len first_buf (lenN file) (hd_error sched)) 0) as [En|En].
  - rewrite (read_loop_eof _ _ _ _ _ _ En). intros H. inversion H; subst cs; clear H.
    apply read_len_zero in En; [|lia]. apply lenN_zero in En.
    split; [intros _; left; exact En | reflexivity].
  - destruct (read_loop_more (List.length file) first_buf first_buf [] file sched Hb ltac:(lia) En)
      as (data & rest' & cs2 & buf2 & -> & Happ & Hlen & Hsmall & Hshort & Hne & Hbuf2 & Hcs2).
    destruct (read_loop_spec (List.length file) cs2 buf2 data rest' (tl sched) Hshort Hbuf2 Hcs2 Hsmall)
      as (out & Hout & _ & _ & _ & _ & _ & Hone & Hmany).
    rewrite Hout. cbn [option_map is_nil app]. intros H. inversion H; subst cs; clear H.
    assert (Hfile : file <> []) by (intros ->; apply En; reflexivity).
    destruct rest' as [|x rest'].
    + rewrite (Hone eq_refl). rewrite app_nil_r in Happ. subst data.
      split; [intros _; right; symmetry; exact Hlen | reflexivity].
    + specialize (Hmany ltac:(discriminate) Hne). split.
      * intros E. lia.
      * intros [E|E]; [contradiction|]. exfalso.
        rewrite <- Hlen, <- Happ, lenN_app, lenN_cons in E. lia.
Qed.

Lemma read_chunks_one_chunk_full file cs :
  read_chunks file [] = Some cs -> (List.length cs = 1%nat <-> lenN file <= 4096).
Proof.
  intros H. rewrite (read_chunks_one_chunk file [] cs H). cbn [hd_error].
  unfold read_len, first_buf. destruct (N.eqb_spec (lenN file) 0) as [E|E].
  - apply lenN_zero in E. subst file. split; [intros _; unfold lenN; cbn [lenN_acc]; lia | auto].
  - split.
    + intros [->|H1]; [unfold lenN; cbn [lenN_acc]; lia | lia].
    + intros H1. right. lia.
Qed.

Lemma read_chunks_one_chunk_both (file : list ascii) (sched : list N) cs :
  read_chunks file sched = Some cs ->
  (List.length cs = 1%nat <-> file = [] \/ read_len 4096 (lenN file) (hd_error sched) = lenN file) /\
  (sched = [] -> (List.length cs = 1%nat <-> lenN file <= 4096)).
Proof.
  intros H. split.
  - exact (read_chunks_one_chunk file sched cs H).
  - intros ->. exact (read_chunks_one_chunk_full file cs H).
Qed.

Definition written (st : wstate) : bytes :=
  match st with WOpen f => d_content f | WClosed _ => [] end.

(* what one chunk does to the destination *)
Lemma write_cmd_chunk mt c st : write_cmd st (cmd_of mt c) =
  if snd c then WOpen (mkFile (written st ++ fst c) None)
  else WClosed (Some (mkFile (written st ++ fst c) (Some mt))).
Proof. unfold write_cmd, cmd_of. cbn [c_more c_mtime c_data]. destruct (snd c), st; reflexivity. Qed.

Lemma write_all_chunks mt cs : forall st, flags_ok cs ->
  write_cmds st (map (cmd_of mt) cs) = WClosed (Some (mkFile (written st ++ concat (map fst cs)) (Some mt))).
Proof.
  induction cs as [|c tl IH]; intros st Hf; [destruct Hf|].
  destruct tl as [|d tl].
  - cbn [flags_ok] in Hf. cbn [map write_cmds fold_left concat]. rewrite app_nil_r, write_cmd_chunk, Hf. reflexivity.
  - apply flags_ok_cons in Hf; [|discriminate]. destruct Hf as [Hc Hf].
    change (map (cmd_of mt) (c :: d :: tl)) with (cmd_of mt c :: map (cmd_of mt) (d :: tl)).
    unfold write_cmds in *. cbn [fold_left]. rewrite (IH _ Hf).
    change (map fst (c :: d :: tl)) with (fst c :: map fst (d :: tl)). cbn [concat].
    rewrite write_cmd_chunk, Hc. cbn [written d_content]. rewrite app_assoc. reflexivity.
Qed.

Lemma write_transfer mt cs prev : flags_ok cs ->
  write_cmds (WClosed prev) (map (cmd_of mt) cs) = WClosed (Some (mkFile (concat (map fst cs)) (Some mt))).
Proof. intros Hf. rewrite (write_all_chunks mt cs _ Hf). reflexivity. Qed.

Lemma flags_ok_prefix_true pre : forall post, flags_ok (pre ++ post) -> post <> [] ->
  Forall (fun c : chunk => snd c = true) pre.
Proof.
  induction pre as [|c pre IH]; intros post Hf Hp; [constructor|].
  cbn [app] in Hf. apply flags_ok_cons in Hf.
  - destruct Hf as [Hc Hf]. constructor; [exact Hc | exact (IH post Hf Hp)].
  - destruct pre; [exact Hp | discriminate].
Qed.

Lemma write_open_prefix mt pre : forall st, Forall (fun c : chunk => snd c = true) pre -> pre <> [] ->
  write_cmds st (map (cmd_of mt) pre) = WOpen (mkFile (written st ++ concat (map fst pre)) None).
Proof.
  induction pre as [|c pre IH]; intros st Ht Hne; [congruence|].
  inversion Ht as [|c' pre' Hc Ht']; subst c' pre'.
  unfold write_cmds in *. cbn [map fold_left concat].
  rewrite write_cmd_chunk, Hc. destruct pre as [|d pre].
  - cbn [map fold_left concat]. rewrite app_nil_r. reflexivity.
  - rewrite (IH _ Ht' ltac:(discriminate)). cbn [written d_content]. rewrite app_assoc. reflexivity.
Qed.

Lemma write_prefix_unstamped mt cs prev pre post :
  flags_ok cs -> cs = pre ++ post -> pre <> [] -> post <> [] ->
  write_cmds (WClosed prev) (map (cmd_of mt) pre) = WOpen (mkFile (concat (map fst pre)) None).
Proof.
  intros Hf -> Hpre Hpost.
  rewrite (write_open_prefix mt pre _ (flags_ok_prefix_true pre post Hf Hpost) Hpre). reflexivity.
Qed.

Lemma relay_from_ok fx listed mt cs : forall off, flags_ok cs -> off + total cs = listed ->
  relay_from fx listed mt off cs = (map (cmd_of mt) cs, Ok tt).
Proof.
  induction cs as [|c tl IH]; intros off Hf Ht; [destruct Hf|].
  rewrite total_cons in Ht. cbn [relay_from].
  destruct (N.ltb_spec listed (off + lenN (fst c))) as [Hlt|Hge]; [lia|].
  destruct tl as [|d tl].
  - cbn [flags_ok] in Hf. rewrite Hf. unfold total in Ht. cbn [map concat] in Ht. rewrite lenN_nil in Ht.
    destruct (N.eqb_spec (off + lenN (fst c)) listed) as [E|E]; [reflexivity | lia].
  - apply flags_ok_cons in Hf; [|discriminate]. destruct Hf as [Hc Hf]. rewrite Hc.
    rewrite (IH (off + lenN (fst c)) Hf ltac:(lia)). reflexivity.
Qed.

Lemma relay_from_detects listed mt cs : forall off, flags_ok cs -> off + total cs <> listed ->
  snd (relay_from true listed mt off cs) = Err e_size_changed.
Proof.
  induction cs as [|c tl IH]; intros off Hf Ht; [destruct Hf|].
  rewrite total_cons in Ht. cbn [relay_from].
  destruct (N.ltb_spec listed (off + lenN (fst c))) as [Hlt|Hge]; [reflexivity|].
  destruct tl as [|d tl].
  - cbn [flags_ok] in Hf. rewrite Hf. unfold total in Ht. cbn [map concat] in Ht. rewrite lenN_nil in Ht.
    destruct (N.eqb_spec (off + lenN (fst c)) listed) as [E|E]; [lia | reflexivity].
  - apply flags_ok_cons in Hf; [|discriminate]. destruct Hf as [Hc Hf]. rewrite Hc.
    specialize (IH (off + lenN (fst c)) Hf ltac:(lia)).
    destruct (relay_from true listed mt (off + lenN (fst c)) (d :: tl)) as [cmds r]. exact IH.
Qed.

Lemma relay_from_ok_inv listed mt cs : forall off cmds,
  relay_from true listed mt off cs = (cmds, Ok tt) ->
  exists pre post, cs = pre ++ post /\ flags_ok pre /\ off + total pre = listed /\ cmds = map (cmd_of mt) pre.
Proof.
  induction cs as [|c tl IH]; intros off cmds H; cbn [relay_from] in H; [discriminate|].
  destruct (N.ltb_spec listed (off + lenN (fst c))) as [Hlt|Hge]; [discriminate|].
  destruct (snd c) eqn:Hc.
  - destruct (relay_from true listed mt (off + lenN (fst c)) tl) as [cmds' r] eqn:Hr.
    inversion H; subst cmds r; clear H.
    destruct (IH _ _ Hr) as (pre & post & -> & Hf & Ht & ->).
    exists (c :: pre), post. repeat split.
    + apply flags_ok_cons; [now apply flags_ok_nonnil | split; assumption].
    + rewrite total_cons. lia.
  - destruct (N.eqb_spec (off + lenN (fst c)) listed) as [E|E]; [|discriminate].
    inversion H; subst cmds; clear H.
    exists [c], tl. repeat split.
    + exact Hc.
    + rewrite total_cons. unfold total. cbn [map concat]. rewrite lenN_nil. lia.
Qed.

Lemma transfer_same_size file sched prev mt :
  transfer (lenN file) mt file sched prev = Some (WClosed (Some (mkFile file (Some mt))), Ok tt).
Proof.
  unfold transfer. destruct (read_chunks_spec file sched) as (cs & -> & Hf & Hcat & _).
  unfold relay. rewrite (relay_from_ok true (lenN file) mt cs 0 Hf).
  - rewrite (write_transfer mt cs prev Hf), Hcat. reflexivity.
  - unfold total. rewrite Hcat. lia.
Qed.

Lemma transfer_size_changed listed file sched prev mt : listed <> lenN file ->
  exists st, transfer listed mt file sched prev = Some (st, Err e_size_changed).
Proof.
  intros Hne. unfold transfer. destruct (read_chunks_spec file sched) as (cs & -> & Hf & Hcat & _).
  pose proof (relay_from_detects listed mt cs 0 Hf) as Hd. unfold relay.
  destruct (relay_from true listed mt 0 cs) as [cmds r]. cbn [snd] in Hd.
  rewrite Hd; [eexists; reflexivity|]. unfold total. rewrite Hcat. lia.
Qed.

(* the sizes-only loop computes the chunk sizes of the reader (used for the ladder fact) *)

Definition sizes (cs : list chunk) : list N := map (fun c => lenN (fst c)) cs.

Lemma read_len_le_avail buf avail ch : read_len buf avail ch <> 0 ->
  1 <= read_len buf avail ch <= avail.
Proof.
  unfold read_len. destruct (N.eqb_spec avail 0) as [E|E]; [congruence|].
  destruct ch as [r|]; lia.
Qed.

Lemma size_loop_of_read_loop : forall fuel cs buf prev rest sched out,
  read_loop fuel cs buf prev rest sched = Some out ->
  size_loop fuel cs buf (lenN prev) (lenN rest) sched = Some (sizes out).
Proof.
  induction fuel as [|fuel IH]; intros cs buf prev rest sched out H; cbn [read_loop] in H; [discriminate|].
  cbn [size_loop].
  set (choice := match sched with [] => None | r :: _ => Some r end) in *.
  set (sched' := match sched with [] => [] | _ :: s => s end) in *.
  set (n := read_len buf (lenN rest) choice) in *.
  destruct (N.eqb_spec n 0) as [En|En].
  - inversion H; subst out. reflexivity.
  - pose proof (read_len_le_avail buf (lenN rest) choice En) as Hn. fold n in Hn.
    destruct (split_at n rest) as [data rest'] eqn:Hs.
    destruct (split_at_props rest n data rest' Hs Hn) as (Happ & Hlen & _ & _).
    assert (Hrest' : lenN rest' = lenN rest - n).
    { rewrite <- Happ, lenN_app, Hlen. lia. }
    rewrite <- Hrest', <- Hlen.
    assert (Hemit : (if lenN prev =? 0 then [] else [lenN prev]) = sizes (if is_nil prev then [] else [(prev, true)])).
    { destruct prev as [|p prev]; [reflexivity|]. cbn [is_nil]. rewrite lenN_cons.
      destruct (N.eqb_spec (1 + lenN prev) 0) as [E|E]; [lia|]. unfold sizes. cbn [map fst]. now rewrite lenN_cons. }
    rewrite Hemit. rewrite Hlen. destruct (n <? buf).
    + destruct (read_loop fuel cs short_buf data rest' sched') as [out'|] eqn:Hr; [|discriminate].
      inversion H; subst out. rewrite <- Hlen. rewrite (IH _ _ _ _ _ _ Hr). unfold sizes. now rewrite map_app.
    + destruct (read_loop fuel (N.min (cs * 2) max_chunk) (N.min (cs * 2) max_chunk) data rest' sched') as [out'|] eqn:Hr; [|discriminate].
      inversion H; subst out. rewrite <- Hlen. rewrite (IH _ _ _ _ _ _ Hr). unfold sizes. now rewrite map_app.
Qed.

Lemma size_loop_mono : forall fuel cs buf prev rest sched out,
  size_loop fuel cs buf prev rest sched = Some out ->
  forall fuel', (fuel <= fuel')%nat -> size_loop fuel' cs buf prev rest sched = Some out.
Proof.
  induction fuel as [|fuel IH]; intros cs buf prev rest sched out H fuel' Hle; cbn [size_loop] in H; [discriminate|].
  destruct fuel' as [|fuel']; [lia|]. cbn [size_loop].
  destruct (read_len buf rest match sched with [] => None | r :: _ => Some r end =? 0); [exact H|].
  destruct (read_len buf rest match sched with [] => None | r :: _ => Some r end <? buf).
  - destruct (size_loop fuel cs short_buf _ _ _) as [o|] eqn:Hr; [|discriminate].
    rewrite (IH _ _ _ _ _ _ Hr fuel' ltac:(lia)). exact H.
  - destruct (size_loop fuel (N.min (cs * 2) max_chunk) _ _ _ _) as [o|] eqn:Hr; [|discriminate].
    rewrite (IH _ _ _ _ _ _ Hr fuel' ltac:(lia)). exact H.
Qed.

(* If the sizes-only loop, run with some small fuel, gives [l] for the length of [file], the reader
   cuts [file] into chunks of exactly these sizes. *)
Lemma read_chunks_sizes file sched fuel l :
  size_loop fuel first_buf first_buf 0 (lenN file) sched = Some l ->
  (fuel <= S (List.length file))%nat ->
  exists cs, read_chunks file sched = Some cs /\ sizes cs = l.
Proof.
  intros Hs Hle. destruct (read_chunks_spec file sched) as (cs & Hr & _ & _).
  exists cs. split; [exact Hr|].
  unfold read_chunks in Hr. apply size_loop_of_read_loop in Hr.
  change (lenN (@nil ascii)) with 0 in Hr.
  rewrite (size_loop_mono _ _ _ _ _ _ _ Hs _ Hle) in Hr. now inversion Hr.
Qed.
