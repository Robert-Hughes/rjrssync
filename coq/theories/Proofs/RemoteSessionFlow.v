(* Remote session model, safety of the composed link (C14 for the encrypted TCP channel):
   channel -> sending thread -> socket -> receiving thread -> channel, per direction, under every interleaving,
   capacity and fault plan: what the receiving application took ++ what is queued for it is a prefix of what the
   sending application handed over. *)
From RJ Require Import Base.Prelude Model.RemoteSession Proofs.RemoteSessionBase.

Local Open Scope nat_scope.

Fixpoint wpre (w : list frame) : list msg :=
  match w with [] => [] | f :: t => if fgood f then fpay f :: wpre t else [] end.
Definition allgood (w : list frame) : bool := forallb fgood w.
Definition rheld (t : rth) : list msg := match t with RHold m => [m] | _ => [] end.
Definition sheld (t : sth) : list msg := match t with SHold m => [m] | _ => [] end.

(* one direction: sender side (history, sending thread, queue of its channel), the wire, receiver side *)
Definition flowP (hs : list msg) (st : sth) (qo : list msg) (w : list frame) (rt : rth) (qi hg : list msg) : Prop :=
  exists r1, hs = hg ++ qi ++ r1 /\
    (rcv_ended rt = false -> exists r2, r1 = rheld rt ++ wpre w ++ r2 /\
        (allgood w = true -> st <> SErr -> r2 = sheld st ++ qo)).

Definition flow (tx : endpoint) (w : list frame) (rx : endpoint) : Prop :=
  flowP (hsent tx) (snd_t tx) (q (outc tx)) w (rcv_t rx) (q (inc rx)) (hgot rx).

Lemma wpre_app_good w l : allgood w = true -> wpre (w ++ l) = wpre w ++ wpre l.
Proof.
  induction w as [|f t IH]; cbn [wpre allgood forallb app]; [reflexivity|].
  intros H. apply andb_true_iff in H as [H1 H2]. rewrite H1. cbn [app]. now rewrite IH.
Qed.

Lemma wpre_app_bad w l : allgood w = false -> wpre (w ++ l) = wpre w.
Proof.
  induction w as [|f t IH]; cbn [wpre allgood forallb app]; [discriminate|].
  intros H. destruct (fgood f); [|reflexivity]. cbn [andb] in H. now rewrite IH.
Qed.

Lemma allgood_app w l : allgood (w ++ l) = allgood w && allgood l.
Proof. apply forallb_app. Qed.

Lemma f_push hs st qo w rt qi hg m :
  flowP hs st qo w rt qi hg -> flowP (hs ++ [m]) st (qo ++ [m]) w rt qi hg.
Proof.
  intros (r1 & E1 & H2). exists (r1 ++ [m]). split; [rewrite E1; now rewrite <- !app_assoc|].
  intros Hr. destruct (H2 Hr) as (r2 & E2 & H3). exists (r2 ++ [m]). split; [rewrite E2; now rewrite <- !app_assoc|].
  intros Hg Hs. rewrite (H3 Hg Hs). now rewrite <- app_assoc.
Qed.

Lemma f_take hs st qo w rt m t hg :
  flowP hs st qo w rt (m :: t) hg -> flowP hs st qo w rt t (hg ++ [m]).
Proof.
  intros (r1 & E1 & H2). exists r1. split; [rewrite E1; rewrite <- !app_assoc; reflexivity | exact H2].
Qed.

Lemma f_pop hs m t w rt qi hg :
  flowP hs SIdle (m :: t) w rt qi hg -> flowP hs (SHold m) t w rt qi hg.
Proof.
  intros (r1 & E1 & H2). exists r1. split; [exact E1|]. intros Hr. destruct (H2 Hr) as (r2 & E2 & H3).
  exists r2. split; [exact E2|]. intros Hg _. rewrite (H3 Hg); [reflexivity | discriminate].
Qed.

Lemma f_write hs m qo w rt qi hg n (bad : bool) :
  flowP hs (SHold m) qo w rt qi hg ->
  flowP hs SIdle qo (w ++ [mkFr n (if bad then MGarb else m) (negb bad)]) rt qi hg.
Proof.
  intros (r1 & E1 & H2). exists r1. split; [exact E1|]. intros Hr. destruct (H2 Hr) as (r2 & E2 & H3).
  destruct (allgood w) eqn:Hg.
  - assert (E3 : r2 = [m] ++ qo) by (apply H3; [first [exact Hg | reflexivity] | discriminate]).
    destruct bad; cbn [negb].
    + exists r2. rewrite wpre_app_good by exact Hg. cbn [wpre fgood]. rewrite app_nil_r. split; [exact E2|].
      rewrite allgood_app. cbn [allgood forallb fgood]. rewrite andb_false_r. discriminate.
    + exists qo. rewrite wpre_app_good by exact Hg. cbn [wpre fgood fpay]. split.
      * rewrite E2, E3. now rewrite <- !app_assoc.
      * reflexivity.
  - exists r2. rewrite wpre_app_bad by exact Hg. split; [exact E2|].
    rewrite allgood_app, Hg. discriminate.
Qed.

Lemma f_snd_err hs st qo w rt qi hg : flowP hs st qo w rt qi hg -> flowP hs SErr qo w rt qi hg.
Proof.
  intros (r1 & E1 & H2). exists r1. split; [exact E1|]. intros Hr. destruct (H2 Hr) as (r2 & E2 & _).
  exists r2. split; [exact E2|]. intros _ X. now elim X.
Qed.

Lemma f_snd_ok hs w rt qi hg : flowP hs SIdle [] w rt qi hg -> flowP hs SOk [] w rt qi hg.
Proof.
  intros (r1 & E1 & H2). exists r1. split; [exact E1|]. intros Hr. destruct (H2 Hr) as (r2 & E2 & H3).
  exists r2. split; [exact E2|]. intros Hg _. apply H3; [first [exact Hg | reflexivity] | discriminate].
Qed.

Lemma f_accept hs st qo f t qi hg :
  flowP hs st qo (f :: t) RIdle qi hg -> fgood f = true -> flowP hs st qo t (RHold (fpay f)) qi hg.
Proof.
  intros (r1 & E1 & H2) Hf. exists r1. split; [exact E1|]. intros _. destruct (H2 eq_refl) as (r2 & E2 & H3).
  exists r2. cbn [wpre] in E2. rewrite Hf in E2. split; [exact E2|].
  intros Hg. apply H3. cbn [allgood forallb]. rewrite Hf. exact Hg.
Qed.

Lemma f_rcv_end hs st qo w w' rt rt' qi hg :
  flowP hs st qo w rt qi hg -> rcv_ended rt' = true -> flowP hs st qo w' rt' qi hg.
Proof. intros (r1 & E1 & _) H. exists r1. split; [exact E1|]. rewrite H. discriminate. Qed.

Lemma f_rcv_push hs st qo w m qi hg :
  flowP hs st qo w (RHold m) qi hg -> flowP hs st qo w RIdle (qi ++ [m]) hg.
Proof.
  intros (r1 & E1 & H2). destruct (H2 eq_refl) as (r2 & E2 & H3). exists (wpre w ++ r2). split.
  - rewrite E1, E2. cbn [rheld]. now rewrite <- !app_assoc.
  - intros _. exists r2. split; [reflexivity | exact H3].
Qed.

Lemma f_final hs w rt qi hg n (bad : bool) :
  flowP hs SOk [] w rt qi hg ->
  flowP (hs ++ [MFinal]) SOk [] (w ++ [mkFr n (if bad then MGarb else MFinal) (negb bad)]) rt qi hg.
Proof.
  intros (r1 & E1 & H2). exists (r1 ++ [MFinal]). split; [rewrite E1; now rewrite <- !app_assoc|].
  intros Hr. destruct (H2 Hr) as (r2 & E2 & H3).
  destruct (allgood w) eqn:Hg.
  - assert (E3 : r2 = []) by (apply H3; [first [exact Hg | reflexivity] | discriminate]). subst r2.
    destruct bad; cbn [negb].
    + exists [MFinal]. rewrite wpre_app_good by exact Hg. cbn [wpre fgood]. rewrite !app_nil_r in *. split.
      * rewrite E2. now rewrite <- !app_assoc.
      * rewrite allgood_app. cbn [allgood forallb fgood]. rewrite andb_false_r. discriminate.
    + exists []. rewrite wpre_app_good by exact Hg. cbn [wpre fgood fpay]. rewrite !app_nil_r in *. split.
      * rewrite E2. now rewrite <- !app_assoc.
      * reflexivity.
  - exists (r2 ++ [MFinal]). rewrite wpre_app_bad by exact Hg. split.
    + rewrite E2. now rewrite <- !app_assoc.
    + rewrite allgood_app, Hg. discriminate.
Qed.

(* one direction of the link: its flow, and the flags of the two channels follow the two threads
   (a sending thread that has ended has dropped its channel end, and has ended Ok only on a channel that the main
   thread had dropped while it was empty; likewise the receiving thread) *)
Record dir_ok (tx : endpoint) (w : list frame) (rx : endpoint) : Prop := {
  dir_flow : flow tx w rx;
  dir_rxa : rxa (outc tx) = negb (snd_ended (snd_t tx));
  dir_done : snd_t tx = SOk -> q (outc tx) = [] /\ txa (outc tx) = false;
  dir_txa : txa (inc rx) = negb (rcv_ended (rcv_t rx)) }.

Lemma dir_step_ok c bad tx w rx tx' w' rx' :
  dir_step c bad tx w rx tx' w' rx' -> dir_ok tx w rx -> dir_ok tx' w' rx'.
Proof.
  intros D [F R D1 T]. unfold flow in F.
  destruct D as [o C | o C | br tx' w' bad' S | eof rx' w' S | tx' rx' E1 E2 | K].
  - destruct o; constructor; unfold flow; cbn [ep_do]; projs; auto.
    + now apply f_push.
    + destruct C as [_ X]. intros K. rewrite K in R. rewrite R in X. discriminate X.
    + intros K. split; [now apply D1 | reflexivity].
  - destruct o; constructor; unfold flow; cbn [ep_do]; projs; auto.
    destruct C as [t Q]. rewrite Q in *. now apply f_take.
  - destruct S as [m t K Q | K Q X | m K B | m K B S]; rewrite K in *; constructor; unfold flow; projs; auto;
      try (intros Z; discriminate Z).
    + rewrite Q in F. now apply f_pop.
    + rewrite Q in *. now apply f_snd_ok.
    + eapply f_snd_err; exact F.
    + now apply f_write.
  - destruct S as [f t K W G N | f t K W G | K W E | m K C X Z | m K C X Z | m K X]; rewrite K in *;
      constructor; unfold flow; projs; auto.
    + subst w. now apply f_accept.
    + eapply f_rcv_end; [exact F | reflexivity].
    + eapply f_rcv_end; [exact F | reflexivity].
    + now apply f_rcv_push.
    + eapply f_rcv_end; [apply f_rcv_push; exact F | reflexivity].
    + eapply f_rcv_end; [exact F | reflexivity].
  - destruct E1 as (A1 & A2 & _ & A4). destruct E2 as (B1 & B2 & _ & B4).
    constructor; unfold flow; rewrite ?A1, ?A2, ?A4, ?B1, ?B2, ?B4; assumption.
  - constructor; unfold flow; projs; auto. rewrite K in *. destruct (D1 eq_refl) as [Q _]. rewrite Q in *.
    now apply f_final.
Qed.

Lemma flow_incl tx w rx m : flow tx w rx -> In m (hgot rx ++ q (inc rx)) -> In m (hsent tx).
Proof. intros (r1 & E1 & _) H. rewrite E1, app_assoc. apply in_or_app. now left. Qed.

Lemma flow_held tx w rx m : flow tx w rx -> rcv_t rx = RHold m -> In m (hsent tx).
Proof.
  intros (r1 & E1 & H2) T. rewrite T in H2. destruct (H2 eq_refl) as (r2 & E2 & _). rewrite E1, E2.
  apply in_or_app. right. apply in_or_app. right. now left.
Qed.

Record FInv (s : st) : Prop := {
  fi_b2d : dir_ok (be s) (b2d s) (de s);
  fi_d2b : dir_ok (de s) (d2b s) (be s) }.

Lemma reach_finv c x s : reach c x s -> FInv s.
Proof.
  apply reach_next_ind.
  - assert (D : forall n m, dir_ok (mkEp SIdle RIdle ch0 ch0 n m [] []) [] (mkEp SIdle RIdle ch0 ch0 m n [] [])).
    { constructor; unfold flow; projs; cbn [ch0 q rxa txa snd_ended rcv_ended negb]; try reflexivity; [|discriminate].
      exists []. split; [reflexivity|]. intros _. exists []. split; reflexivity. }
    split; apply D.
  - intros a s0 s' _ [F1 F2] H. apply next_dirs in H as [D1 D2].
    split; eapply dir_step_ok; eassumption.
Qed.

Theorem remote_delivery c x s : reach c x s ->
  (exists rest, hsent (be s) = (hgot (de s) ++ q (inc (de s))) ++ rest) /\
  (exists rest, hsent (de s) = (hgot (be s) ++ q (inc (be s))) ++ rest).
Proof.
  intros R. destruct (reach_finv _ _ _ R) as [[(r1 & E1 & _) _ _ _] [(r2 & E2 & _) _ _ _]].
  split; [exists r1 | exists r2]; rewrite <- app_assoc; assumption.
Qed.

(* what is held by the receiving thread and what is still on the wire before the first bad frame continues the
   same sequence: nothing is lost in the middle, duplicated or reordered anywhere in the pipeline *)
Theorem remote_pipeline c x s : reach c x s ->
  (rcv_ended (rcv_t (de s)) = false ->
     exists rest, hsent (be s) = hgot (de s) ++ q (inc (de s)) ++ rheld (rcv_t (de s)) ++ wpre (b2d s) ++ rest) /\
  (rcv_ended (rcv_t (be s)) = false ->
     exists rest, hsent (de s) = hgot (be s) ++ q (inc (be s)) ++ rheld (rcv_t (be s)) ++ wpre (d2b s) ++ rest).
Proof.
  intros R. destruct (reach_finv _ _ _ R) as [[(r1 & E1 & H1) _ _ _] [(r2 & E2 & H2) _ _ _]].
  split; intros Hr.
  - destruct (H1 Hr) as (r & E & _). exists r. now rewrite E1, E.
  - destruct (H2 Hr) as (r & E & _). exists r. now rewrite E2, E.
Qed.
