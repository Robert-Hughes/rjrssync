(* The launch handshake (Model/Handshake.v): the boss writes its key only while it processes a Started line on stdout
   that carries exactly its own version; and for every causally possible interleaving of the two streams of a doer,
   with noise anywhere, the launch succeeds exactly when the doer's version is ours. *)
From RJ Require Import Base.Prelude Model.Handshake.
Local Open Scope N_scope.

Lemma starts_with_app (p x : str) : starts_with p (p ++ x) = true.
Proof. induction p as [|a p IH]; cbn [starts_with app]; [reflexivity|]. rewrite Ascii.eqb_refl, IH. reflexivity. Qed.

(* The two strings differ at a position both have. *)
Fixpoint differ (a b : str) : bool :=
  match a, b with
  | x :: a', y :: b' => negb (Ascii.eqb x y) || differ a' b'
  | _, _ => false
  end.

Lemma differ_starts_with (a b : str) : differ a b = true -> forall x, starts_with a (b ++ x) = false.
Proof.
  revert b; induction a as [|x a IH]; intros [|y b] H z; cbn [differ] in H; try discriminate.
  cbn [app starts_with]. destruct (Ascii.eqb x y); cbn [negb orb andb] in *; [apply IH; exact H | reflexivity].
Qed.

Lemma after_prefix_app (p x : str) : after_prefix p (p ++ x) = x.
Proof. unfold after_prefix. induction p as [|a p IH]; [reflexivity | exact IH]. Qed.

Lemma pop_line_nl (l : str) : pop_line (l ++ nl) = l.
Proof. unfold pop_line, nl. apply removelast_last. Qed.

(* The handshake prefixes cannot be confused with each other. *)
Definition prefixes_ok (c : hcfg) : Prop := differ (started_prefix c) (completed_prefix c) = true.

Definition version_of (c : hcfg) (l : str) : str := after_prefix (started_prefix c) l.

Lemma dec_val_digit (d : N) : d < 10 -> dec_val (ascii_of_N (48 + d)) = Some d.
Proof.
  intros H. unfold dec_val. rewrite N_ascii_embedding by lia.
  replace (48 <=? 48 + d) with true by (symmetry; apply N.leb_le; lia).
  replace (48 + d <=? 57) with true by (symmetry; apply N.leb_le; lia).
  cbn [andb]. f_equal. lia.
Qed.

(* Printing puts the digits of n in front of [rest]; reading them back from 0 arrives at n.  The
   accumulator never exceeds n, so the overflow test of parse_dec never fires below the limit. *)
Lemma parse_print_dec (limit : N) (fuel : nat) : forall n rest,
  n < 10 ^ N.of_nat fuel -> n < limit ->
  parse_dec limit 0 (print_dec_fuel fuel n rest) = parse_dec limit n rest.
Proof.
  induction fuel as [|f IH]; intros n rest Hf Hl.
  - cbn in Hf. now replace n with 0 by lia.
  - rewrite Nat2N.inj_succ, N.pow_succ_r' in Hf.
    assert (Hd : forall a, a * 10 + n mod 10 = n -> parse_dec limit a (ascii_of_N (48 + n mod 10) :: rest) = parse_dec limit n rest).
    { intros a Ha. cbn [parse_dec]. rewrite dec_val_digit by lia. cbv zeta. rewrite Ha.
      now replace (n <? limit) with true by (symmetry; apply N.ltb_lt; exact Hl). }
    cbn [print_dec_fuel]. cbv zeta. destruct (N.eqb_spec (n / 10) 0) as [E|E].
    + apply Hd. lia.
    + rewrite IH by lia. apply Hd. lia.
Qed.

Lemma print_dec_head (fuel : nat) : forall n rest,
  exists d t, d < 10 /\ print_dec_fuel (S fuel) n rest = ascii_of_N (48 + d) :: t.
Proof.
  induction fuel as [|f IH]; intros n rest; cbn [print_dec_fuel]; cbv zeta;
    destruct (n / 10 =? 0); try apply IH; exists (n mod 10); eexists; (split; [lia | reflexivity]).
Qed.

Lemma port_roundtrip (p : N) : p < 65536 -> parse_u16 (print_dec p) = Some p.
Proof.
  intros H. unfold print_dec. destruct (print_dec_head 19 p []) as (d & t & Hd & E).
  assert (B : 65536 <= 10 ^ N.of_nat 20) by (vm_compute; discriminate).
  pose proof (parse_print_dec 65536 20 p [] (N.lt_le_trans _ _ _ H B) H) as R. rewrite E in *.
  unfold parse_u16. destruct (Ascii.eqb_spec (ascii_of_N (48 + d)) "+") as [C|_]; [|exact R].
  apply (f_equal N_of_ascii) in C. rewrite N_ascii_embedding in C by lia. cbn in C. lia.
Qed.

Lemma is_noise_marker c l : is_noise c l = true -> has_marker l = false.
Proof. unfold is_noise. intros H. apply andb_true_iff in H as [_ H]. now apply negb_true_iff in H. Qed.

Lemma version_of_started_line c v : version_of c (started_line c v) = v.
Proof. apply after_prefix_app. Qed.

Lemma boss_step_noise c wok st s l : is_noise c l = true -> boss_step c wok st (s, MLine l) = Continue st false.
Proof. intros H. cbn [boss_step]. now rewrite (is_noise_marker _ _ H). Qed.

Lemma boss_step_started c wok st s l :
  boss_step c wok st (s, MStarted l) =
    if str_eqb (version_of c l) (own_version c)
    then match s with
         | Stdout => if wok then Continue (key_written st) true else Done LCommErr true
         | Stderr => Continue st false
         end
    else Done (LIncompat (version_of c l)) false.
Proof. unfold boss_step, version_of. now destruct (str_eqb _ _). Qed.

Lemma boss_step_started_done c wok st s l :
  version_of c l <> own_version c -> boss_step c wok st (s, MStarted l) = Done (LIncompat (version_of c l)) false.
Proof. intros V. rewrite boss_step_started. now rewrite (proj2 (str_eqb_neq _ _) V). Qed.

Lemma boss_step_completed c wok st s p :
  p < 65536 ->
  boss_step c wok st (s, MCompleted (completed_line c p)) =
    let st' := mark_completed s st in
    if h_out st' && h_err st'
    then match h_key st' with Some k => Done (LSuccess p k) false | None => Continue st' false end
    else Continue st' false.
Proof. intros H. cbn [boss_step]. unfold completed_line. now rewrite after_prefix_app, port_roundtrip. Qed.

Definition step_wrote (r : step_res) : bool := match r with Continue _ w => w | Done _ w => w end.

(* A key is written only while processing a Started line on stdout that carries exactly our version. *)
Lemma boss_step_wrote c wok st ev :
  step_wrote (boss_step c wok st ev) = true ->
  exists l, ev = (Stdout, MStarted l) /\ version_of c l = own_version c.
Proof.
  destruct ev as [s [l| | |l|l]]; try discriminate.
  - cbn [boss_step]. destruct (has_marker l); discriminate.
  - rewrite boss_step_started. destruct (str_eqb _ _) eqn:E; [|discriminate].
    destruct s; [|discriminate]. intros _. exists l. split; [reflexivity | now apply str_eqb_eq].
  - cbn [boss_step]. destruct (parse_u16 _); [|discriminate].
    destruct (_ && _); [|discriminate]. destruct (h_key _); discriminate.
Qed.

(* Only a writing step changes the remembered key, and Success reports that key. *)
Lemma boss_step_key c wok st ev :
  match boss_step c wok st ev with
  | Continue st' w => w = false -> h_key st' = h_key st
  | Done r _ => forall p k, r = LSuccess p k -> h_key st = Some k
  end.
Proof.
  destruct ev as [s [l| | |l|l]]; cbn [boss_step]; try discriminate.
  - destruct (has_marker l); [discriminate | reflexivity].
  - destruct s; reflexivity.
  - destruct (negb _); [discriminate|]. destruct s; [destruct wok|]; [discriminate.. | reflexivity].
  - assert (K : h_key (mark_completed s st) = h_key st) by (destruct s; reflexivity).
    rewrite <- K. clear K. destruct (parse_u16 _); [|discriminate]. destruct (_ && _); [|reflexivity].
    destruct (h_key (mark_completed s st)) eqn:E; [intros p k [= _ <-]; reflexivity | intros _; exact E].
Qed.

Lemma run_from_cons c wok st i ev t :
  run_from c wok st i (ev :: t) =
    let b := boss_step c wok st ev in
    (match b with Done r _ => r | Continue st' _ => fst (run_from c wok st' (S i) t) end,
     (if step_wrote b then [i] else []) ++
     match b with Done _ _ => [] | Continue st' _ => snd (run_from c wok st' (S i) t) end).
Proof. cbn [run_from]. destruct (boss_step _ _ _ _) as [st' []|r []]; [destruct (run_from _ _ _ _ _)..| |]; reflexivity. Qed.

Lemma key_only_after_match c wok : forall evs st i j,
  In j (snd (run_from c wok st i evs)) ->
  exists k l, j = (i + k)%nat /\ nth_error evs k = Some (Stdout, MStarted l) /\ version_of c l = own_version c.
Proof.
  induction evs as [|ev t IH]; intros st i j Hj; [contradiction|].
  rewrite run_from_cons in Hj. apply in_app_or in Hj as [Hj|Hj].
  - destruct (step_wrote _) eqn:W; [|contradiction]. destruct Hj as [<-|[]].
    apply boss_step_wrote in W as (l & -> & V). exists O, l. rewrite Nat.add_0_r. auto.
  - destruct (boss_step c wok st ev) as [st' w|r w]; [|contradiction].
    apply IH in Hj as (k & l & -> & N & V). exists (S k), l. rewrite Nat.add_succ_r. auto.
Qed.

(* Success means a key had been written (before, or in this run). *)
Lemma success_needs_key c wok : forall evs st i p k,
  fst (run_from c wok st i evs) = LSuccess p k -> h_key st <> None \/ snd (run_from c wok st i evs) <> [].
Proof.
  induction evs as [|ev t IH]; intros st i p k H.
  - cbn in H. destruct (_ && _); discriminate H.
  - rewrite run_from_cons in *. pose proof (boss_step_key c wok st ev) as K.
    destruct (boss_step c wok st ev) as [st' [|]|r w]; cbn [fst snd step_wrote app] in *.
    + right; discriminate.
    + rewrite <- (K eq_refl). eapply IH, H.
    + left. rewrite (K p k H). discriminate.
Qed.

Fixpoint consumed (c : hcfg) (wok : bool) (st : hs) (evs : list (stream * msg)) : nat :=
  match evs with
  | [] => O
  | ev :: t => match boss_step c wok st ev with
               | Done _ _ => 1%nat
               | Continue st' _ => S (consumed c wok st' t)
               end
  end.

Definition started_ok (c : hcfg) (ev : stream * msg) : Prop :=
  match snd ev with MStarted l => version_of c l = own_version c | _ => True end.

(* Every Started line the loop passed on the way to Success carried our version. *)
Lemma success_all_started_ok c wok : forall evs st i p k,
  fst (run_from c wok st i evs) = LSuccess p k ->
  Forall (started_ok c) (firstn (consumed c wok st evs) evs).
Proof.
  induction evs as [|ev t IH]; intros st i p k H; [constructor|]. rewrite run_from_cons in H. cbn [consumed].
  assert (Hev : started_ok c ev).
  { destruct ev as [s [l| | |l|l]]; try exact I. apply str_eqb_eq.
    rewrite boss_step_started in H. destruct (str_eqb _ _); [reflexivity | discriminate H]. }
  destruct (boss_step c wok st ev) as [st' w|r w]; cbn [firstn]; constructor; eauto.
Qed.

Definition not_started (ev : stream * msg) : Prop := match snd ev with MStarted _ => False | _ => True end.
Definition harmless (ev : stream * msg) : Prop :=
  match snd ev with MLine l => has_marker l = false | MClosed => True | _ => False end.

(* Before any Started line there is no key, so the loop cannot succeed: it goes on, or gives up
   on a marker line, a read error or an unparsable port. *)
Lemma boss_step_unstarted c wok st ev :
  not_started ev -> h_key st = None ->
  match boss_step c wok st ev with
  | Continue st' w => w = false /\ h_key st' = None
  | Done r w => w = false /\ (r = LNotPresent \/ r = LCommErr) /\ ~ harmless ev
  end.
Proof.
  destruct ev as [s [l| | |l|l]]; unfold not_started, harmless; cbn [snd boss_step]; intros N K; [| | |contradiction|].
  - destruct (has_marker l); [split; [|split]; auto; discriminate | auto].
  - auto.
  - split; [reflexivity|]. destruct s; exact K.
  - assert (K' : h_key (mark_completed s st) = None) by (destruct s; exact K).
    destruct (parse_u16 _); [|auto]. rewrite K'. destruct (_ && _); auto.
Qed.

Lemma no_key_on_mismatch_gen c wok : forall pre st i s l post,
  Forall not_started pre -> h_key st = None -> version_of c l <> own_version c ->
  let r := run_from c wok st i (pre ++ (s, MStarted l) :: post) in
  snd r = [] /\
  (fst r = LIncompat (version_of c l) \/ fst r = LNotPresent \/ fst r = LCommErr) /\
  (Forall harmless pre -> fst r = LIncompat (version_of c l)).
Proof.
  induction pre as [|ev pre IH]; intros st i s l post Hpre K V; cbn [app]; rewrite run_from_cons.
  - rewrite (boss_step_started_done c wok st s l V). cbn. auto.
  - inversion Hpre as [|? ? Hev Hpre']; subst.
    pose proof (boss_step_unstarted c wok st ev Hev K) as B.
    destruct (boss_step c wok st ev) as [st' w|r w]; cbn [fst snd].
    + destruct B as [-> K']. destruct (IH st' (S i) s l post Hpre' K' V) as (A & B & C).
      repeat split; auto. intros Hh. apply C. inversion Hh; assumption.
    + destruct B as (-> & R & Nh). repeat split; [tauto|]. intros Hh. inversion Hh; contradiction.
Qed.

(* What remains to be delivered of a stream of a doer announcing [v] and listening on [p]:
   noise anywhere, then (unless already delivered: flag true) the Started line, then the Completed line. *)
Inductive good_stream (c : hcfg) (v : str) (p : N) : bool -> list msg -> Prop :=
| gs_noise b l t : is_noise c l = true -> good_stream c v p b t -> good_stream c v p b (MLine l :: t)
| gs_started t : good_stream c v p true t -> good_stream c v p false (MStarted (started_line c v) :: t)
| gs_completed : good_stream c v p true [MCompleted (completed_line c p)].

(* Arrival orders: any interleaving of what the two reader threads send. *)
Inductive interleave : list msg -> list msg -> list (stream * msg) -> Prop :=
| il_nil : interleave [] [] []
| il_out m ro re evs : interleave ro re evs -> interleave (m :: ro) re ((Stdout, m) :: evs)
| il_err m ro re evs : interleave ro re evs -> interleave ro (m :: re) ((Stderr, m) :: evs).

Definition is_nil {A} (l : list A) : bool := match l with [] => true | _ => false end.

(* A stream that has been delivered completely has also delivered its Started line. *)
Definition stream_inv (c : hcfg) (v : str) (p : N) (b : bool) (q : list msg) : Prop :=
  (q = [] /\ b = true) \/ good_stream c v p b q.

(* The loop's state is a function of what has been delivered: whether the key has been sent (that is,
   whether stdout's Started line has been delivered) and which streams are finished. *)
Definition st_of (key_sent out_done err_done : bool) : hs :=
  mkHs out_done err_done (if key_sent then Some O else None) (if key_sent then 1%nat else O) out_done err_done.

(* The same seen from stream [s]: [own] is that stream's flag, [other] the other one's. *)
Definition st_for (s : stream) (key_sent own other : bool) : hs :=
  match s with Stdout => st_of key_sent own other | Stderr => st_of key_sent other own end.

Definition flag_after (m : msg) (b : bool) : bool := match m with MStarted _ => true | _ => b end.
Definition key_after (s : stream) (m : msg) (key_sent : bool) : bool :=
  match s with Stdout => flag_after m key_sent | Stderr => key_sent end.

Lemma is_nil_good c v p b ms : good_stream c v p b ms -> is_nil ms = false.
Proof. intros H; inversion H; reflexivity. Qed.

Lemma stream_inv_cons c v p b m t : stream_inv c v p b (m :: t) -> good_stream c v p b (m :: t).
Proof. intros [[E _]|G]; [discriminate E | exact G]. Qed.

Lemma good_cons c v p b m t :
  good_stream c v p b (m :: t) ->
  stream_inv c v p (flag_after m b) t /\
  (flag_after m b <> b -> m = MStarted (started_line c v)) /\
  (is_nil t = true -> m = MCompleted (completed_line c p)).
Proof.
  intros G. inversion G as [? l ? _ Gt|? Gt|]; subst; cbn [flag_after]; try rewrite (is_nil_good _ _ _ _ _ Gt);
    (split; [|split]); try discriminate; try contradiction; auto; try (right; exact Gt). left. auto.
Qed.

Lemma causal_cons ko s m evs :
  causal_from ko ((s, m) :: evs) = true ->
  (forall l, m = MCompleted l -> ko = true) /\ causal_from (key_after s m ko) evs = true.
Proof.
  destruct m, s; cbn [causal_from key_after flag_after stream_eqb]; rewrite ?orb_true_r, ?orb_false_r;
    try (intros H; split; [discriminate | exact H]); intros H; apply andb_true_iff in H as [-> H]; auto.
Qed.

(* One delivery from a stream of a doer of our version, the key having been sent if the message is a
   Completed line: the loop stays in the state that belongs to what remains, writes the key exactly
   when this sends it, and returns Success when nothing remains. *)
Lemma good_boss_step c v p s ko b m t other :
  v = own_version c -> p < 65536 ->
  good_stream c v p b (m :: t) -> (s = Stdout -> b = ko) -> (forall l, m = MCompleted l -> ko = true) ->
  boss_step c true (st_for s ko false other) (s, m) =
    if is_nil t && other then Done (LSuccess p O) false
    else Continue (st_for s (key_after s m ko) (is_nil t) other) (negb ko && key_after s m ko).
Proof.
  intros Hv Hp G Hb Hk. inversion G as [? l ? Hn Gt|? Gt|]; subst b m; try subst t.
  - rewrite (boss_step_noise _ _ _ _ _ Hn), (is_nil_good _ _ _ _ _ Gt). destruct s, ko; reflexivity.
  - rewrite boss_step_started, version_of_started_line, Hv, str_eqb_refl, (is_nil_good _ _ _ _ _ Gt).
    destruct s; [rewrite <- Hb by reflexivity | destruct ko]; reflexivity.
  - rewrite (Hk _ eq_refl), (boss_step_completed _ _ _ _ _ Hp). destruct s, other; reflexivity.
Qed.

Lemma bad_boss_step c v p wok s st m t :
  v <> own_version c -> good_stream c v p false (m :: t) ->
  (good_stream c v p false t /\ boss_step c wok st (s, m) = Continue st false) \/
  boss_step c wok st (s, m) = Done (LIncompat v) false.
Proof.
  intros Hv G. inversion G as [? l ? Hn Gt|? Gt|]; subst.
  - left. split; [exact Gt | apply boss_step_noise, Hn].
  - right. rewrite boss_step_started_done; rewrite version_of_started_line; auto.
Qed.

(* How many keys a run writes, and where: none once the key has been sent, else one, at stdout's Started line. *)
Definition key_writes (c : hcfg) (v : str) (ko : bool) (i : nat) (evs : list (stream * msg)) (ws : list nat) : Prop :=
  if ko then ws = [] else exists j, ws = [(i + j)%nat] /\ nth_error evs j = Some (Stdout, MStarted (started_line c v)).

Lemma key_writes_cons c v s m evs ko ko' i ws :
  (ko = true -> ko' = true) -> (ko' <> ko -> (s, m) = (Stdout, MStarted (started_line c v))) ->
  key_writes c v ko' (S i) evs ws ->
  key_writes c v ko i ((s, m) :: evs) ((if negb ko && ko' then [i] else []) ++ ws).
Proof.
  unfold key_writes. intros Hm Hw W. destruct ko; [rewrite (Hm eq_refl) in W; exact W|]. destruct ko'; cbn [negb andb app].
  - rewrite W, Hw by discriminate. exists O. rewrite Nat.add_0_r. auto.
  - destruct W as (j & -> & N). exists (S j). rewrite Nat.add_succ_r. auto.
Qed.

Lemma handshake_ok c v p :
  v = own_version c -> p < 65536 ->
  forall ro re evs, interleave ro re evs ->
  forall ko be i,
    stream_inv c v p ko ro -> stream_inv c v p be re -> is_nil ro && is_nil re = false ->
    causal_from ko evs = true ->
    fst (run_from c true (st_of ko (is_nil ro) (is_nil re)) i evs) = LSuccess p O /\
    key_writes c v ko i evs (snd (run_from c true (st_of ko (is_nil ro) (is_nil re)) i evs)).
Proof.
  intros Hv Hp ro re evs H.
  induction H as [|m ro re evs H IH|m ro re evs H IH]; intros ko be i Io Ie Hne Hc; [discriminate Hne| |];
    apply causal_cons in Hc as [Hk Hc]; rewrite run_from_cons.
  - apply stream_inv_cons in Io as G. destruct (good_cons _ _ _ _ _ _ G) as (Io' & Hs & Hl).
    pose proof (good_boss_step c v p Stdout ko ko m ro (is_nil re) Hv Hp G (fun _ => eq_refl) Hk) as B.
    cbn [st_for is_nil] in *. rewrite B. destruct (is_nil ro && is_nil re) eqn:N; cbn [fst snd step_wrote].
    + apply andb_true_iff in N as [N _]. rewrite (Hk _ (Hl N)). split; reflexivity.
    + (* the case split has turned the premise of IH on the two queues into false = false *)
      destruct (IH _ be (S i) Io' Ie eq_refl Hc) as [R W]. split; [exact R|].
      apply key_writes_cons; [destruct m; auto | intros F; now rewrite (Hs F) | exact W].
  - apply stream_inv_cons in Ie as G. destruct (good_cons _ _ _ _ _ _ G) as (Ie' & _ & Hl).
    pose proof (good_boss_step c v p Stderr ko be m re (is_nil ro) Hv Hp G ltac:(discriminate) Hk) as B.
    cbn [st_for is_nil] in *. rewrite B, andb_comm. destruct (is_nil ro && is_nil re) eqn:N; cbn [fst snd step_wrote].
    + apply andb_true_iff in N as [_ N]. rewrite (Hk _ (Hl N)). split; reflexivity.
    + destruct (IH ko _ (S i) Io Ie' eq_refl Hc) as [R W]. split; [exact R|].
      apply key_writes_cons; [auto | intros []; reflexivity | exact W].
Qed.

Lemma handshake_mismatch c v p :
  v <> own_version c ->
  forall ro re evs, interleave ro re evs ->
  forall st i, good_stream c v p false ro -> good_stream c v p false re ->
    run_from c true st i evs = (LIncompat v, []).
Proof.
  intros Hv ro re evs H. induction H as [|m ro re evs H IH|m ro re evs H IH]; intros st i Go Ge; [inversion Go| |];
    rewrite run_from_cons.
  - destruct (bad_boss_step c v p true Stdout st m ro Hv Go) as [[Gt ->]| ->]; cbn [fst snd]; [rewrite (IH st (S i) Gt Ge)|]; reflexivity.
  - destruct (bad_boss_step c v p true Stderr st m re Hv Ge) as [[Gt ->]| ->]; cbn [fst snd]; [rewrite (IH st (S i) Go Gt)|]; reflexivity.
Qed.

Definition noise_read (l : str) : read := RLine (l ++ nl).

(* Everything a stream carries: noise, the Started line, noise, the Completed line, then anything. *)
Definition transcript (c : hcfg) (v : str) (p : N) (n1 n2 : list str) (rest : list read) : list read :=
  map noise_read n1 ++ RLine (started_line c v ++ nl) :: map noise_read n2 ++ RLine (completed_line c p ++ nl) :: rest.

Lemma classify_noise c l : is_noise c l = true -> classify c (l ++ nl) = MLine l.
Proof.
  unfold is_noise, classify. intros H. apply andb_true_iff in H as [H _]. apply andb_true_iff in H as [H1 H2].
  rewrite pop_line_nl. apply negb_true_iff in H1, H2. rewrite H1, H2. reflexivity.
Qed.

Lemma classify_started c v : classify c (started_line c v ++ nl) = MStarted (started_line c v).
Proof. unfold classify. rewrite pop_line_nl. unfold started_line. rewrite starts_with_app. reflexivity. Qed.

Lemma classify_completed c p : prefixes_ok c -> classify c (completed_line c p ++ nl) = MCompleted (completed_line c p).
Proof.
  intros P. unfold classify. rewrite pop_line_nl. unfold completed_line.
  rewrite (differ_starts_with _ _ P), starts_with_app. reflexivity.
Qed.

Lemma reader_noise_prefix c ns rest : Forall (fun l => is_noise c l = true) ns ->
  reader c (map noise_read ns ++ rest) = map MLine ns ++ reader c rest.
Proof.
  induction 1 as [|l ns Hl Hns IH]; [reflexivity|].
  cbn [map app reader noise_read]. rewrite (classify_noise c l Hl), IH. reflexivity.
Qed.

Lemma good_noise_prefix c v p b ns t : Forall (fun l => is_noise c l = true) ns ->
  good_stream c v p b t -> good_stream c v p b (map MLine ns ++ t).
Proof. induction 1; cbn [map app]; [auto | intros G; constructor; auto]. Qed.

(* What the reader thread makes of a transcript is a good stream with nothing delivered yet. *)
Lemma reader_transcript_good c v p n1 n2 rest :
  prefixes_ok c -> Forall (fun l => is_noise c l = true) n1 -> Forall (fun l => is_noise c l = true) n2 ->
  good_stream c v p false (reader c (transcript c v p n1 n2 rest)).
Proof.
  intros P H1 H2. unfold transcript. rewrite reader_noise_prefix by assumption.
  cbn [reader]. rewrite classify_started. rewrite reader_noise_prefix by assumption.
  cbn [reader]. rewrite classify_completed by assumption.
  apply good_noise_prefix; [assumption|]. constructor. apply good_noise_prefix; [assumption|]. constructor.
Qed.

(* C15, handshake: for every causally possible arrival order of the two streams of a doer that
   announces [v], with noise anywhere, the launch succeeds with the doer's port exactly when [v] is
   our version; exactly one key is written and that happens while processing the stdout Started
   line; a doer of any other version gets no key. *)
Lemma handshake_theorem c v p no1 no2 ne1 ne2 rest_o rest_e evs :
  prefixes_ok c -> p < 65536 ->
  Forall (fun l => is_noise c l = true) no1 -> Forall (fun l => is_noise c l = true) no2 ->
  Forall (fun l => is_noise c l = true) ne1 -> Forall (fun l => is_noise c l = true) ne2 ->
  interleave (reader c (transcript c v p no1 no2 rest_o)) (reader c (transcript c v p ne1 ne2 rest_e)) evs ->
  causal evs = true ->
  (v = own_version c ->
     exists j, run c true evs = (LSuccess p O, [j]) /\
               nth_error evs j = Some (Stdout, MStarted (started_line c v))) /\
  (v <> own_version c -> run c true evs = (LIncompat v, [])).
Proof.
  intros P Hp Ho1 Ho2 He1 He2 Hil Hc.
  pose proof (reader_transcript_good c v p no1 no2 rest_o P Ho1 Ho2) as Go.
  pose proof (reader_transcript_good c v p ne1 ne2 rest_e P He1 He2) as Ge.
  split; intros Hv.
  - pose proof (is_nil_good _ _ _ _ _ Go) as No. pose proof (is_nil_good _ _ _ _ _ Ge) as Ne.
    destruct (handshake_ok c v p Hv Hp _ _ _ Hil false false O (or_intror Go) (or_intror Ge)) as [R (j & W & Hn)];
      [rewrite No; reflexivity | exact Hc|].
    rewrite No, Ne in *. exists j. split; [|exact Hn]. apply injective_projections; [exact R | exact W].
  - unfold run. eapply handshake_mismatch; eauto.
Qed.

Lemma run_key_only_after_match c wok evs r ws :
  run c wok evs = (r, ws) -> forall j, In j ws ->
  exists l, nth_error evs j = Some (Stdout, MStarted l) /\ version_of c l = own_version c.
Proof.
  intros H j Hj. destruct (key_only_after_match c wok evs hs_init O j) as (k & l & -> & N); [|eauto].
  fold (run c wok evs). rewrite H. exact Hj.
Qed.

Lemma run_no_key_on_mismatch c wok pre s l post :
  Forall not_started pre -> version_of c l <> own_version c ->
  let r := run c wok (pre ++ (s, MStarted l) :: post) in
  snd r = [] /\
  (fst r = LIncompat (version_of c l) \/ fst r = LNotPresent \/ fst r = LCommErr) /\
  (Forall harmless pre -> fst r = LIncompat (version_of c l)).
Proof. intros P V. apply no_key_on_mismatch_gen; auto. Qed.
