(* C06: the code's verdict (wrap the text, compile, search, last match wins) is the documented rule
   (whole-path match of each pattern's own AST); the shipped set gives the same verdict on every
   doer; the walk lists exactly the entries that survive together with all their ancestors. *)
From RJ Require Import Base.Prelude Model.Regex Model.RegexParse Model.Filters.
From RJ Require Import Proofs.RegexProofs Proofs.RegexParseProofs.

Local Open Scope char_scope.

Lemma own_ast_inv f sg r : own_ast f = Some (sg, r) ->
  exists pat, split_sign f = Some (sg, pat) /\ parse pat = Some r.
Proof.
  unfold own_ast. destruct (split_sign f) as [[sg' pat]|]; [|discriminate].
  destruct (parse pat) as [r'|] eqn:E; cbn [option_map]; [|discriminate].
  intros H; injection H as <- <-. exists pat. auto.
Qed.

Lemma own_asts_split fs : forall asts, map own_ast fs = map Some asts ->
  exists sp, all_some (map split_sign fs) = Some sp /\ map fst sp = map fst asts /\
             Forall2 (fun x a => parse (snd x) = Some (snd a)) sp asts.
Proof.
  induction fs as [|f fs IH]; intros [|[sg r] asts] H; cbn [map] in H; try discriminate.
  - exists []. repeat split; constructor.
  - injection H as H1 H2. destruct (IH _ H2) as (sp & Hs & Hk & Hp).
    destruct (own_ast_inv _ _ _ H1) as (pat & Hsp & Hpa).
    exists ((sg, pat) :: sp). cbn [map all_some]. rewrite Hsp, Hs. cbn [option_map map fst].
    repeat split; [congruence | constructor; auto].
Qed.

Lemma regex_set_wrapped sp asts :
  Forall2 (fun x a => parse (snd x) = Some (snd a)) sp asts ->
  regex_set (map (fun x : sign * str => wrap (snd x)) sp) = Some (map (fun a : sign * re => anchored (snd a)) asts).
Proof.
  unfold regex_set. induction 1 as [|x a sp asts Hxa _ IH]; cbn [map all_some]; [reflexivity|].
  rewrite (anchor_wrap _ _ Hxa), IH. reflexivity.
Qed.

Lemma last_match_spec asts p : forall st,
  last_match (map fst asts) (map (fun a : sign * re => anchored (snd a)) asts) p st =
  Ok (match last_matching asts p with Some x => x | None => st end).
Proof.
  induction asts as [|[sg r] tl IH]; intros st; cbn [map last_match last_matching fst snd]; [reflexivity|].
  rewrite IH. unfold anchored. rewrite search_anchored_is_fullmatch.
  destruct (last_matching tl p); [reflexivity|]. destruct (fullmatch r p); reflexivity.
Qed.

Theorem verdict_is_rule fs asts p :
  map own_ast fs = map Some asts -> model_verdict fs p = Ok (spec_verdict asts p).
Proof.
  intros H. destruct (own_asts_split _ _ H) as (sp & Hs & Hk & Hp).
  unfold model_verdict, boss_verdict, compile_filters, compile_filters_w. rewrite Hs.
  pose proof (regex_set_wrapped _ _ Hp) as HR. cbv zeta. rewrite HR. cbn [obind].
  unfold doer_verdict. cbn [fl_patterns fl_kinds]. rewrite HR, Hk.
  unfold apply_filters, spec_verdict. destruct p as [|c p]; [reflexivity|].
  rewrite last_match_spec. destruct (last_matching asts (c :: p)); [reflexivity|].
  destruct asts as [|[[|] r] tl]; reflexivity.
Qed.

Lemma fullmatch_false r p : fullmatch r p = false <-> ~ matches_whole r p.
Proof. rewrite <- fullmatch_correct. destruct (fullmatch r p); split; congruence. Qed.

Lemma last_matching_none asts p : last_matching asts p = None <-> Forall (no_match p) asts.
Proof.
  induction asts as [|[sg r] tl IH]; cbn [last_matching]; [split; auto; constructor|].
  destruct (last_matching tl p) eqn:E.
  - split; [discriminate|]. intros H; inversion H as [|? ? _ Ht]; subst. apply IH in Ht. discriminate.
  - destruct (fullmatch r p) eqn:F.
    + split; [discriminate|]. intros H; inversion H; subst. apply fullmatch_correct in F. contradiction.
    + split; auto. intros _. constructor; [apply fullmatch_false; exact F | apply IH; reflexivity].
Qed.

Lemma last_matching_app a b p :
  last_matching (a ++ b) p = match last_matching b p with Some x => Some x | None => last_matching a p end.
Proof.
  induction a as [|[sg r] a IH]; cbn [app last_matching]; [|rewrite IH]; destruct (last_matching b p); reflexivity.
Qed.

Lemma last_matching_some asts p sg : last_matching asts p = Some sg <->
  exists pre r post, asts = pre ++ (sg, r) :: post /\ matches_whole r p /\ Forall (no_match p) post.
Proof.
  split.
  - revert sg. induction asts as [|[s0 r0] tl IH]; intros sg; cbn [last_matching]; [discriminate|].
    destruct (last_matching tl p) as [x|] eqn:E.
    + intros [= ->]. destruct (IH _ eq_refl) as (pre & r & post & -> & Hm & Hn). exists ((s0, r0) :: pre), r, post. auto.
    + destruct (fullmatch r0 p) eqn:F; [|discriminate]. intros [= ->]. exists [], r0, tl.
      repeat split; [apply fullmatch_correct, F | apply last_matching_none, E].
  - intros (pre & r & post & -> & Hm & Hn). rewrite last_matching_app. cbn [last_matching].
    now rewrite (proj2 (last_matching_none _ _) Hn), (proj2 (fullmatch_correct _ _) Hm).
Qed.

Theorem rule_is_text asts p sg : p <> [] -> (spec_verdict asts p = sg <-> decides asts p sg).
Proof.
  intros Hp. unfold spec_verdict, decides. destruct p as [|c p]; [contradiction|].
  destruct (last_matching asts (c :: p)) as [x|] eqn:E.
  - split.
    + intros <-. left. apply last_matching_some. exact E.
    + intros [H|[H _]].
      * apply last_matching_some in H. congruence.
      * apply last_matching_none in H. congruence.
  - split.
    + intros <-. right. split; [apply last_matching_none; exact E | reflexivity].
    + intros [H|[_ H]].
      * apply last_matching_some in H. congruence.
      * symmetry; exact H.
Qed.

Corollary takes_part_iff asts p : takes_part asts p <-> spec_verdict asts p = Inc.
Proof.
  unfold takes_part. destruct p as [|c p].
  - split; [reflexivity | left; reflexivity].
  - rewrite (rule_is_text asts (c :: p) Inc) by discriminate. split; [intros [H|H]; [discriminate|exact H] | right; assumption].
Qed.

(* The defect F1 at the level of verdicts: in the code before the fix "-a|b" also excludes "ab" (and "xb", "ax"),
   which the documented rule includes. *)
Lemma old_wrap_refuted :
  let fs := [["-"; "a"; "|"; "b"]] in let p := ["a"; "b"] in
  old_verdict fs p = Ok Exc /\ model_verdict fs p = Ok Inc /\
  exists asts, map own_ast fs = map Some asts /\ spec_verdict asts p = Inc.
Proof.
  cbv zeta. split; [vm_compute; reflexivity|]. split; [vm_compute; reflexivity|].
  destruct (own_ast ["-"; "a"; "|"; "b"]) as [a|] eqn:E; [|vm_compute in E; discriminate].
  exists [a]. split; [cbn [map]; rewrite E; reflexivity|].
  vm_compute in E. injection E as <-. vm_compute. reflexivity.
Qed.

Lemma all_some_length {A} (l : list (option A)) r : all_some l = Some r -> length r = length l.
Proof.
  revert r. induction l as [|[a|] l IH]; cbn [all_some]; intros r H; try discriminate.
  - injection H as <-. reflexivity.
  - destruct (all_some l) as [r'|]; cbn [option_map] in H; [|discriminate]. injection H as <-.
    cbn [length]. f_equal. apply IH. reflexivity.
Qed.

Lemma last_match_total kinds : forall res p st, length kinds = length res -> exists v, last_match kinds res p st = Ok v.
Proof.
  induction kinds as [|k kinds IH]; intros [|r res] p st H; cbn [length] in H; try discriminate; cbn [last_match].
  - eauto.
  - apply IH. lia.
Qed.

Theorem shipped_set_works fs fl : compile_filters fs = Ok fl ->
  length (fl_kinds fl) = length (fl_patterns fl) /\
  forall p, exists v, doer_verdict fl p = Ok v /\ boss_verdict fs p = Ok v.
Proof.
  unfold boss_verdict. intros H. rewrite H. cbn [obind]. revert H. unfold compile_filters, compile_filters_w.
  destruct (all_some (map split_sign fs)) as [sp|] eqn:Hs; [|discriminate].
  cbv zeta. destruct (regex_set (map (fun x => wrap (snd x)) sp)) as [res|] eqn:HR; [|discriminate].
  intros H; injection H as <-. cbn [fl_kinds fl_patterns].
  split; [now rewrite !map_length|].
  intros p. unfold doer_verdict. cbn [fl_kinds fl_patterns]. rewrite HR.
  unfold apply_filters. destruct p as [|c p]; [eauto|].
  destruct (last_match_total (map fst sp) res (c :: p)
             (match map fst sp with Inc :: _ => Exc | Exc :: _ => Inc | [] => Inc end)) as (v & Hv).
  - unfold regex_set in HR. apply all_some_length in HR. rewrite !map_length in *. lia.
  - exists v. auto.
Qed.

Section TreeInd.
  Variable P : tree -> Prop.
  Hypothesis HF : P File.
  Hypothesis HL : P Link.
  Hypothesis HD : forall ch, Forall (fun x => P (snd x)) ch -> P (Dir ch).
  Fixpoint tree_ind2 (t : tree) : P t :=
    match t with
    | File => HF
    | Link => HL
    | Dir ch => HD ch ((fix go (l : list (str * tree)) : Forall (fun x => P (snd x)) l :=
                          match l with
                          | [] => Forall_nil _
                          | x :: l' => Forall_cons x (tree_ind2 (snd x)) (go l')
                          end) ch)
    end.
End TreeInd.

Lemma walk_cons inc pre nm c l :
  walk inc pre (Dir ((nm, c) :: l)) =
  (if inc (join pre nm) then join pre nm :: walk inc (join pre nm) c else []) ++ walk inc pre (Dir l).
Proof. reflexivity. Qed.
Lemma entries_cons pre anc nm c l :
  entries pre anc (Dir ((nm, c) :: l)) =
  (join pre nm, anc) :: entries (join pre nm) (join pre nm :: anc) c ++ entries pre anc (Dir l).
Proof. reflexivity. Qed.

Lemma entries_hidden inc t : forall pre anc, forallb inc anc = false ->
  filter (survives inc) (entries pre anc t) = [].
Proof.
  induction t as [| |ch IH] using tree_ind2; intros pre anc H; try reflexivity.
  induction IH as [|[nm c] l Hc _ IHl]; [reflexivity|].
  rewrite entries_cons. cbn [filter]. unfold survives at 1. cbn [fst snd]. rewrite H, andb_false_r.
  rewrite filter_app, IHl. cbn [snd] in Hc. rewrite Hc; [reflexivity|].
  cbn [forallb]. rewrite H. apply andb_false_r.
Qed.

Theorem walk_spec inc t : forall pre anc, forallb inc anc = true ->
  walk inc pre t = map fst (filter (survives inc) (entries pre anc t)).
Proof.
  induction t as [| |ch IH] using tree_ind2; intros pre anc H; try reflexivity.
  induction IH as [|[nm c] l Hc _ IHl]; [reflexivity|].
  rewrite walk_cons, entries_cons. cbn [filter]. unfold survives at 1. cbn [fst snd]. rewrite H, andb_true_r.
  rewrite filter_app. cbn [snd] in Hc.
  destruct (inc (join pre nm)) eqn:E.
  - cbn [map fst]. rewrite map_app, <- IHl. cbn [app]. f_equal. f_equal.
    apply Hc. cbn [forallb]. rewrite E, H. reflexivity.
  - rewrite map_app, <- IHl. rewrite entries_hidden; [reflexivity|]. cbn [forallb]. rewrite E. reflexivity.
Qed.

(* listed iff present and surviving with every ancestor; in particular nothing beneath an excluded folder *)
Corollary listed_iff inc t q :
  In q (walk inc [] t) <-> exists anc, In (q, anc) (entries [] [] t) /\ inc q = true /\ forallb inc anc = true.
Proof.
  rewrite (walk_spec inc t [] []) by reflexivity. rewrite in_map_iff. split.
  - intros ([q' anc] & Hq & Hin). cbn [fst] in Hq. subst q'. apply filter_In in Hin as [Hin Hs].
    unfold survives in Hs. cbn [fst snd] in Hs. apply andb_true_iff in Hs as [H1 H2]. eauto.
  - intros (anc & Hin & H1 & H2). exists (q, anc). split; [reflexivity|]. apply filter_In. split; [exact Hin|].
    unfold survives. cbn [fst snd]. rewrite H1, H2. reflexivity.
Qed.

Corollary hidden_beneath_excluded inc t q :
  In q (walk inc [] t) -> forall anc d, In (q, anc) (entries [] [] t) -> In d anc ->
  (forall anc', In (q, anc') (entries [] [] t) -> anc' = anc) -> inc d = true.
Proof.
  intros Hq anc d Hin Hd Huniq. apply listed_iff in Hq as (anc' & Hin' & _ & Hall).
  rewrite (Huniq _ Hin') in Hall. rewrite forallb_forall in Hall. auto.
Qed.

(* source and destination: the same shipped set, so an entry that exists on both sides below the same
   folders is listed on one side iff it is listed on the other *)
Corollary same_on_both_trees inc S D q anc :
  (forall a, In (q, a) (entries [] [] S) -> a = anc) -> (forall a, In (q, a) (entries [] [] D) -> a = anc) ->
  In (q, anc) (entries [] [] S) -> In (q, anc) (entries [] [] D) ->
  (In q (walk inc [] S) <-> In q (walk inc [] D)).
Proof.
  intros US UD HS HD. rewrite !listed_iff. split; intros (a & Hin & H1 & H2).
  - apply US in Hin; subst a. eauto.
  - apply UD in Hin; subst a. eauto.
Qed.
