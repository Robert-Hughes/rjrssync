(* One doer command as a relation on the doer's state, so that later proofs never unfold doer_exec: nc_step
   for everything but a file chunk; for a chunk, what the open returned and chunk_end.  From these, for every
   command: it changes the tree at most at its own path, an error other than a failed write leaves the tree
   unchanged, the event log only grows. *)
From RJ Require Import Base.Prelude Base.OrderedPlan Model.Settings Model.Core Model.Fs Model.Sync.

Lemma fget_fset_eq f p n : fget (fset f p n) p = Some n.
Proof. apply alookup_ainsert_eq. Qed.
Lemma fget_fset_ne f p q n : q <> p -> fget (fset f p n) q = fget f q.
Proof. intros; apply alookup_ainsert_ne; auto. Qed.
Lemma fget_fdel_eq f p : fget (fdel f p) p = None.
Proof. apply alookup_aremove_eq. Qed.
Lemma fget_fdel_ne f p q : q <> p -> fget (fdel f p) q = fget f q.
Proof. intros; apply alookup_aremove_ne; auto. Qed.
Lemma fget_fset f p n q : fget (fset f p n) q = if path_eq_dec q p then Some n else fget f q.
Proof. destruct (path_eq_dec q p) as [->|H]; [apply fget_fset_eq|apply fget_fset_ne; exact H]. Qed.
Lemma fget_fdel f p q : fget (fdel f p) q = if path_eq_dec q p then None else fget f q.
Proof. destruct (path_eq_dec q p) as [->|H]; [apply fget_fdel_eq|apply fget_fdel_ne; exact H]. Qed.

Lemma path_eqb_refl p : path_eqb p p = true.
Proof. unfold path_eqb. destruct (path_eq_dec p p); [reflexivity|congruence]. Qed.

Ltac dsimpl := cbn [d_fs d_anc d_tick d_open d_events d_x with_fs with_event with_open tick with_failed count_write note_faildel fst snd] in *.

Ltac inv_pair H := inversion H; subst; clear H.

(* One step of case analysis on the scrutinee of the first match/if in hypothesis H *)
Ltac break_match_hyp H :=
  match type of H with
  | context [match ?x with _ => _ end] =>
      match x with
      | context [match _ with _ => _ end] => fail 1
      | _ => destruct x eqn:?
      end
  end.

Definition ev_le (a b : dstate) : Prop := exists l, d_events b = d_events a ++ l.
Lemma ev_le_same a b : d_events b = d_events a -> ev_le a b.
Proof. intros E. exists []. rewrite app_nil_r. exact E. Qed.
Lemma ev_le_refl a : ev_le a a.
Proof. apply ev_le_same. reflexivity. Qed.
Lemma ev_le_trans a b c : ev_le a b -> ev_le b c -> ev_le a c.
Proof. intros (l1 & E1) (l2 & E2). exists (l1 ++ l2). rewrite E2, E1, app_assoc. reflexivity. Qed.

Inductive deletes : cmd -> path -> Prop :=
| del_file p : deletes (CDeleteFile p) p
| del_folder p : deletes (CDeleteFolder p) p
| del_link p k : deletes (CDeleteSymlink p k) p.
Inductive creates (fl : flavour) : cmd -> path -> node -> Prop :=
| cr_folder p : creates fl (CCreateFolder p) p NFolder
| cr_link p k t : creates fl (CCreateSymlink p k t) p (NLink (denormalize fl t) k).

Lemma deletes_path c p : deletes c p -> cmd_path c = Some p /\ is_chunk c = false.
Proof. intros []; split; reflexivity. Qed.
Lemma creates_path fl c p n : creates fl c p n -> cmd_path c = Some p.
Proof. intros []; reflexivity. Qed.

(* Everything a command other than a file chunk can do: nothing; answer with an error and, if it is a
   deletion that was not refused, remember that it failed; log that its path leads through a link; create its
   folder or link where nothing was; delete a leaf or an empty folder. *)
Inductive nc_step (fl : flavour) (st : dstate) (c : cmd) : dstate -> option errc -> Prop :=
| nc_quiet : mutating c = false \/ c = CCreateRootAncestors -> nc_step fl st c st None
| nc_anc : c = CCreateRootAncestors ->
    nc_step fl st c (with_event (mkD (d_fs st) AncOk (d_tick st) (d_open st) (d_events st) (d_x st)) CreatedAncestors) None
| nc_err e : (forall p, deletes c p -> blocked_at st p = true) -> nc_step fl st c st (Some e)
| nc_faildel p e : deletes c p -> nc_step fl st c (note_faildel st p) (Some e)
| nc_through p q : cmd_path c = Some p -> resolve_above st p = PRThrough q -> nc_step fl st c (with_event st (Through q)) None
| nc_set p n : creates fl c p n -> resolve_above st p = PROk -> fget (d_fs st) p = None ->
    nc_step fl st c (with_fs st (fset (d_fs st) p n)) None
| nc_del p : deletes c p -> resolve_above st p = PROk ->
    fget (d_fs st) p <> Some NFolder \/ has_children (d_fs st) p = false ->
    nc_step fl st c (with_fs st (fdel (d_fs st) p)) None.

(* the check both symlink commands make first on Windows *)
Lemma win_unknown_cases {A} (P : A -> Prop) (fl : flavour) (k : skind) (a b : A) :
  P a -> P b -> P (match fl, k with Windows, SKUnknown => a | _, _ => b end).
Proof. intros Ha Hb. destruct fl, k; assumption. Qed.

Lemma doer_exec_nc fl st c : is_chunk c = false -> nc_step fl st c (fst (doer_exec fl st c)) (snd (doer_exec fl st c)).
Proof.
  intros Hc.
  assert (Hb : forall p, cmd_path c = Some p -> blocked_at st p = true -> forall e, nc_step fl st c st (Some e)).
  { intros p Hp Hb e. apply nc_err. intros p' Hd. apply deletes_path in Hd as [Hd _]. congruence. }
  assert (Hcr : (forall p, ~ deletes c p) -> forall e, nc_step fl st c st (Some e)).
  { intros Hn e. apply nc_err. intros p Hd. destruct (Hn p Hd). }
  assert (Hth : forall p q, cmd_path c = Some p -> resolve_above st p = PRThrough q -> nc_step fl st c (with_event st (Through q)) None)
    by (intros p q; apply nc_through).
  destruct c as [| | |p|p data mt more|p k t|p|p|p|p k| |]; try discriminate Hc; cbn [doer_exec];
    try (apply nc_quiet; left; reflexivity).
  - destruct (d_anc st); cbn [fst snd]; [apply nc_quiet; right; reflexivity|apply nc_anc; reflexivity|].
    apply Hcr. intros p Hd. inversion Hd.
  - specialize (Hcr ltac:(intros p' Hd; inversion Hd)).
    destruct (blocked_at st p) eqn:Eb; [apply (Hb p eq_refl Eb)|].
    apply (win_unknown_cases (fun x => nc_step fl st _ (fst x) (snd x))); [apply Hcr|].
    destruct (resolve_above st p) as [|q|e] eqn:Er; [|apply (Hth p q eq_refl Er)|apply Hcr].
    destruct (fget (d_fs st) p) eqn:Ef; [apply Hcr|]. apply nc_set; [constructor|exact Er|exact Ef].
  - specialize (Hcr ltac:(intros p' Hd; inversion Hd)).
    destruct (blocked_at st p) eqn:Eb; [apply (Hb p eq_refl Eb)|].
    destruct (resolve_above st p) as [|q|e] eqn:Er; [|apply (Hth p q eq_refl Er)|apply Hcr].
    destruct (fget (d_fs st) p) eqn:Ef; [apply Hcr|]. apply nc_set; [constructor|exact Er|exact Ef].
  - pose proof (fun e => nc_faildel fl st _ p e (del_file p)) as He.
    destruct (blocked_at st p) eqn:Eb; [apply (Hb p eq_refl Eb)|].
    destruct (resolve_above st p) as [|q|e] eqn:Er; [|apply (Hth p q eq_refl Er)|apply He].
    destruct (fget (d_fs st) p) as [[m d| |tx kx]|] eqn:Ef; try apply He;
      (apply nc_del; [constructor|exact Er|left; rewrite Ef; discriminate]).
  - pose proof (fun e => nc_faildel fl st _ p e (del_folder p)) as He.
    destruct (blocked_at st p) eqn:Eb; [apply (Hb p eq_refl Eb)|].
    destruct (resolve_above st p) as [|q|e] eqn:Er; [|apply (Hth p q eq_refl Er)|apply He].
    destruct (fget (d_fs st) p) as [[m d| |tx kx]|] eqn:Ef; try apply He.
    destruct (has_children (d_fs st) p) eqn:Eh; [apply He|]. apply nc_del; [constructor|exact Er|right; exact Eh].
  - pose proof (fun e => nc_faildel fl st _ p e (del_link p k)) as He.
    destruct (blocked_at st p) eqn:Eb; [apply (Hb p eq_refl Eb)|].
    apply (win_unknown_cases (fun x => nc_step fl st _ (fst x) (snd x))); [apply He|].
    destruct (resolve_above st p) as [|q|e] eqn:Er; [|apply (Hth p q eq_refl Er)|apply He].
    destruct (fget (d_fs st) p) as [[m d| |tx kx]|] eqn:Ef; try apply He;
      (apply nc_del; [constructor|exact Er|left; rewrite Ef; discriminate]).
Qed.

Lemma open_file st p st1 : open_for_write st p = OpFile st1 ->
  (d_open st = Some p /\ (exists m d, fget (d_fs st) p = Some (NFile m d)) /\ st1 = with_open st None) \/
  (d_open st = None /\ resolve_above st p = PROk /\ fget (d_fs st) p <> Some NFolder /\
   st1 = tick (with_fs st (fset (d_fs st) p (NFile (TNow (d_tick st)) [])))).
Proof.
  unfold open_for_write. destruct (d_open st) as [q|].
  - unfold path_eqb. destruct (path_eq_dec q p) as [->|]; [|discriminate].
    destruct (fget (d_fs st) p) as [[m d| |t k]|]; try discriminate. intros [= <-]. left. eauto.
  - destruct (resolve_above st p); try discriminate.
    destruct (fget (d_fs st) p) as [[m d| |t [| |]]|]; try discriminate; intros [= <-]; right; repeat split; discriminate.
Qed.

(* the open left the tree: the handle of a transfer no longer points at a file, or a link was followed *)
Lemma open_outside st p st1 : open_for_write st p = OpOutside st1 ->
  (d_open st = Some p /\ (forall m d, fget (d_fs st) p <> Some (NFile m d)) /\ st1 = with_open st None) \/
  (d_open st = None /\ exists q, st1 = with_event st (Through q) /\
     (resolve_above st p = PRThrough q \/ q = p /\ exists t k, fget (d_fs st) p = Some (NLink t k))).
Proof.
  unfold open_for_write. destruct (d_open st) as [q|].
  - unfold path_eqb. destruct (path_eq_dec q p) as [->|]; [|discriminate].
    destruct (fget (d_fs st) p) as [[m d| |t k]|]; try discriminate; intros [= <-]; left; repeat split; discriminate.
  - destruct (resolve_above st p) as [|q|e]; try discriminate; [|intros [= <-]; right; eauto].
    destruct (fget (d_fs st) p) as [[m d| |t [| |]]|]; try discriminate; intros [= <-]; right; eauto 8.
Qed.

Lemma open_outside_fs st p st1 : open_for_write st p = OpOutside st1 -> d_fs st1 = d_fs st.
Proof. intros H. apply open_outside in H as [(_ & _ & ->)|(_ & q & -> & _)]; reflexivity. Qed.

Lemma open_same st p st1 : open_for_write st p = OpFile st1 \/ open_for_write st p = OpOutside st1 ->
  d_x st1 = d_x st /\ d_open st1 = None /\ ev_le st st1 /\
  (forall q, q <> p -> fget (d_fs st1) q = fget (d_fs st) q).
Proof.
  intros [H|H].
  - apply open_file in H as [(_ & _ & ->)|(Ho & _ & _ & ->)]; dsimpl; repeat split; auto using ev_le_same.
    intros q Hq. apply fget_fset_ne. exact Hq.
  - apply open_outside in H as [(_ & _ & ->)|(Ho & q & -> & _)]; dsimpl; repeat split; auto using ev_le_same.
    exists [Through q]. reflexivity.
Qed.

(* a chunk command in terms of what the open returned; the answer and the last state of the chunk after an
   open inside the tree are chunk_end *)
Definition chunk_end (st1 : dstate) (p : path) (data : str) (mt : option Z) (more : bool) : dstate * option errc :=
  let stw := write_chunk (count_write st1) p data in
  if write_fails st1 then (with_open stw None, Some EWrite)
  else let st2 := with_failed (with_open stw (if more then Some p else None)) None in
       (match mt with Some t => stamp_file st2 p t | None => st2 end, None).

Lemma chunk_exec fl st p data mt more :
  blocked_at st p = false -> refuses st p = false ->
  doer_exec fl st (CCreateOrUpdateFile p data mt more) =
  match open_for_write (with_failed st (if more then Some p else None)) p with
  | OpErr e => (with_open (with_failed st (if more then Some p else None)) None, Some e)
  | OpOutside st1 => (with_failed (with_open st1 (if more then Some p else None)) None, None)
  | OpFile st1 => chunk_end st1 p data mt more
  end.
Proof. intros Hb Hr. cbn [doer_exec]. rewrite Hb, Hr. reflexivity. Qed.

Lemma chunk_end_same st1 p data mt more :
  x_faildel (d_x (fst (chunk_end st1 p data mt more))) = x_faildel (d_x st1) /\
  d_events (fst (chunk_end st1 p data mt more)) = d_events st1 /\
  (forall q, q <> p -> fget (d_fs (fst (chunk_end st1 p data mt more))) q = fget (d_fs st1) q).
Proof.
  unfold chunk_end, stamp_file, write_chunk. destruct (write_fails st1); [|destruct mt]; dsimpl; repeat split;
    intros q Hq; rewrite ?fget_fset_ne by exact Hq; reflexivity.
Qed.

Lemma chunk_same fl st p data mt more :
  x_faildel (d_x (fst (doer_exec fl st (CCreateOrUpdateFile p data mt more)))) = x_faildel (d_x st) /\
  (forall q, q <> p -> fget (d_fs (fst (doer_exec fl st (CCreateOrUpdateFile p data mt more)))) q = fget (d_fs st) q).
Proof.
  destruct (blocked_at st p) eqn:Hb; [cbn [doer_exec]; rewrite Hb; split; reflexivity|].
  destruct (refuses st p) eqn:Hr; [cbn [doer_exec]; rewrite Hb, Hr; split; reflexivity|].
  rewrite chunk_exec by assumption.
  destruct (open_for_write _ p) as [st1|st1|e] eqn:Eo; [| |split; reflexivity].
  - destruct (open_same _ _ _ (or_introl Eo)) as (Hx & _ & _ & Hf).
    destruct (chunk_end_same st1 p data mt more) as (Cx & _ & Cf).
    split; [rewrite Cx, Hx; reflexivity|]. intros q Hq. rewrite Cf, Hf by exact Hq. reflexivity.
  - destruct (open_same _ _ _ (or_intror Eo)) as (Hx & _ & _ & Hf). dsimpl.
    split; [rewrite Hx; reflexivity|exact Hf].
Qed.

(* what one command adds to the log: nothing, or that the root's ancestors were created, or one path
   it went through: a folder link above its own path or, for a chunk, a link at the path itself *)
Definition through_at (st : dstate) (p q : path) : Prop :=
  resolve_above st p = PRThrough q \/ q = p /\ exists t k, fget (d_fs st) p = Some (NLink t k).

Lemma doer_exec_log fl st c :
  d_events (fst (doer_exec fl st c)) = d_events st \/
  d_events (fst (doer_exec fl st c)) = d_events st ++ [CreatedAncestors] \/
  exists p q, cmd_path c = Some p /\ through_at st p q /\ d_events (fst (doer_exec fl st c)) = d_events st ++ [Through q].
Proof.
  destruct (is_chunk c) eqn:Hc.
  - destruct c; try discriminate Hc.
    destruct (blocked_at st p) eqn:Hb; [cbn [doer_exec]; rewrite Hb; left; reflexivity|].
    destruct (refuses st p) eqn:Hr; [cbn [doer_exec]; rewrite Hb, Hr; left; reflexivity|].
    rewrite chunk_exec by assumption.
    destruct (open_for_write _ p) as [st1|st1|e] eqn:Eo; [| |left; reflexivity].
    + destruct (chunk_end_same st1 p data set_mt more) as (_ & -> & _).
      apply open_file in Eo as [(_ & _ & ->)|(_ & _ & _ & ->)]; left; reflexivity.
    + apply open_outside in Eo as [(_ & _ & ->)|(_ & q & -> & Hq)]; [left; reflexivity|].
      right; right. exists p, q. split; [reflexivity|]. split; [exact Hq|reflexivity].
  - destruct (doer_exec_nc fl st c Hc) as [| | | |p q Hp Hr| |]; try (left; reflexivity); [right; left; reflexivity|].
    right; right. exists p, q. split; [exact Hp|]. split; [left; exact Hr|reflexivity].
Qed.

Lemma doer_exec_frame fl st c st' e p :
  doer_exec fl st c = (st', e) -> cmd_path c <> Some p -> fget (d_fs st') p = fget (d_fs st) p.
Proof.
  intros H Hp. replace st' with (fst (doer_exec fl st c)) by (rewrite H; reflexivity).
  destruct (is_chunk c) eqn:Hc.
  - destruct c; try discriminate Hc. apply chunk_same. cbn [cmd_path] in Hp. congruence.
  - destruct (doer_exec_nc fl st c Hc) as [| | | | |q n Hn|q Hd]; try reflexivity; dsimpl.
    + apply fget_fset_ne. apply creates_path in Hn. congruence.
    + apply fget_fdel_ne. apply deletes_path in Hd as [Hd _]. congruence.
Qed.

(* A command that is answered with an error has not changed the tree - except a failed write, which
   leaves the (created or truncated) file with whatever it wrote and no final timestamp. *)
Lemma doer_exec_err_fs fl st c st' e :
  doer_exec fl st c = (st', Some e) -> e <> EWrite -> d_fs st' = d_fs st.
Proof.
  intros H Hne. destruct (is_chunk c) eqn:Hc.
  - destruct c; try discriminate Hc.
    destruct (blocked_at st p) eqn:Hb; [cbn [doer_exec] in H; rewrite Hb in H; inv_pair H; reflexivity|].
    destruct (refuses st p) eqn:Hr; [cbn [doer_exec] in H; rewrite Hb, Hr in H; inv_pair H; reflexivity|].
    rewrite chunk_exec in H by assumption. unfold chunk_end in H.
    destruct (open_for_write _ p) as [st1|st1|e1]; [destruct (write_fails st1)| |]; inv_pair H; [congruence|reflexivity].
  - pose proof (doer_exec_nc fl st c Hc) as Hs. rewrite H in Hs. cbn [fst snd] in Hs. inversion Hs; reflexivity.
Qed.

Lemma doer_exec_events fl st c : ev_le st (fst (doer_exec fl st c)).
Proof. destruct (doer_exec_log fl st c) as [E|[E|(_ & q & _ & _ & E)]]; [apply ev_le_same; exact E|eexists; exact E..]. Qed.

Lemma faildel_grows fl st c x : In x (x_faildel (d_x st)) -> In x (x_faildel (d_x (fst (doer_exec fl st c)))).
Proof.
  intros Hin. destruct (is_chunk c) eqn:Hc.
  - destruct c; try discriminate Hc. destruct (chunk_same fl st p data set_mt more) as [-> _]. exact Hin.
  - destruct (doer_exec_nc fl st c Hc); try exact Hin. right. exact Hin.
Qed.

Lemma doer_exec_read_only fl st c : read_only c = true -> doer_exec fl st c = (st, None).
Proof. destruct c; cbn; intros H; try discriminate; reflexivity. Qed.
