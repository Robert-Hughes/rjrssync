From RJ Require Import Base.Prelude Base.OrderedPlan Model.Settings Model.Core Spec.PlanSpec.
From Coq Require Import Permutation.

Notation srcs_c := (srcs path entry).
Notation dests_c := (dests path entry).
Notation subseq_c := (subseq path).

(* the planner computes plan_spec, whatever the interleaving *)
Theorem actions_of_spec diff ss (sg : list arrival_t) :
  NoDup (lkeys (srcs_c sg)) -> NoDup (lkeys (dests_c sg)) ->
  actions_of diff ss sg = Some (plan_spec diff ss (srcs_c sg) (dests_c sg)).
Proof.
  intros Hs Hd. unfold actions_of, plan_c.
  destruct (plan_char path path_eq_dec entry (needs_delete diff) (needs_copy ss) sg Hs Hd) as (st & Hp & Hc & Hdel).
  rewrite Hp. unfold plan_spec, copy_dec, delete_dec. rewrite Hc, Hdel. reflexivity.
Qed.

Corollary interleaving_independent diff ss sg1 sg2 :
  srcs_c sg1 = srcs_c sg2 -> dests_c sg1 = dests_c sg2 ->
  NoDup (lkeys (srcs_c sg1)) -> NoDup (lkeys (dests_c sg1)) ->
  actions_of diff ss sg1 = actions_of diff ss sg2.
Proof.
  intros E1 E2 Hs Hd. rewrite (actions_of_spec diff ss sg1 Hs Hd).
  rewrite E1, E2 in *. rewrite (actions_of_spec diff ss sg2 Hs Hd). reflexivity.
Qed.

Lemma before_in_l {A} (a b : A) l : before a b l -> In a l.
Proof. induction 1; simpl; auto. Qed.
Lemma before_in_r {A} (a b : A) l : before a b l -> In b l.
Proof. induction 1; simpl; auto. Qed.
Lemma before_app_r {A} (a b : A) l1 l2 : In a l1 -> In b l2 -> before a b (l1 ++ l2).
Proof.
  induction l1 as [|x l1 IH]; simpl; intros Ha Hb; [contradiction|].
  destruct Ha as [->|Ha].
  - apply before_here. apply in_or_app; auto.
  - apply before_skip; auto.
Qed.
Lemma before_app_ll {A} (a b : A) l1 l2 : before a b l1 -> before a b (l1 ++ l2).
Proof. induction 1; simpl; [apply before_here; apply in_or_app; auto | apply before_skip; auto]. Qed.
Lemma before_app_rr {A} (a b : A) l1 l2 : before a b l2 -> before a b (l1 ++ l2).
Proof. induction l1; simpl; auto. intros; apply before_skip; auto. Qed.
Lemma before_rev {A} (a b : A) l : before a b l -> before b a (rev l).
Proof.
  induction 1 as [l Hb|x l H IH]; simpl.
  - apply before_app_r; [rewrite <- in_rev; auto | simpl; auto].
  - apply before_app_ll; auto.
Qed.
Lemma before_subseq (a b : path) l1 l2 : subseq_c l1 l2 -> before a b l1 -> before a b l2.
Proof.
  induction 1 as [|x l1 l2 Hs IH|x l1 l2 Hs IH]; intros Hb.
  - inversion Hb.
  - apply before_skip; auto.
  - inversion Hb; subst.
    + apply before_here. eapply subseq_in; eauto.
    + apply before_skip; auto.
Qed.
Lemma before_asym_nodup {A} (a b : A) l : NoDup l -> before a b l -> before b a l -> False.
Proof.
  induction 1 as [|x l Hx Hnd IH]; intros H1 H2; [inversion H1|].
  inversion H1; subst; inversion H2; subst.
  - contradiction.
  - apply before_in_r in H3. contradiction.
  - apply before_in_r in H0. contradiction.
  - auto.
Qed.
Lemma before_total {A} (a b : A) l :
  In a l -> In b l -> a <> b -> before a b l \/ before b a l.
Proof.
  induction l as [|x l IH]; simpl; intros Ha Hb Hne; [contradiction|].
  destruct Ha as [->|Ha], Hb as [->|Hb]; try congruence.
  - left. apply before_here; auto.
  - right. apply before_here; auto.
  - destruct (IH Ha Hb Hne); [left|right]; apply before_skip; auto.
Qed.
Lemma before_subseq_inv (a b : path) l1 l2 :
  subseq_c l1 l2 -> NoDup l2 -> In a l1 -> In b l1 -> a <> b -> before a b l2 -> before a b l1.
Proof.
  intros Hs Hnd Ha Hb Hne H2.
  destruct (before_total a b l1 Ha Hb Hne) as [H|H]; auto.
  exfalso. apply (before_subseq _ _ _ _ Hs) in H. eapply before_asym_nodup; eauto.
Qed.

Lemma subseq_refl (l : list path) : subseq_c l l.
Proof. induction l; [apply ss_nil | apply ss_take; auto]. Qed.

Lemma keys_copy_subseq diff ss Ld Ls :
  subseq_c (map fst (flat_map (copy_dec diff ss Ld) Ls)) (lkeys Ls).
Proof.
  induction Ls as [|[p s] Ls IH]; simpl; [constructor|].
  rewrite map_app. unfold copy_dec at 1, copy_decision.
  destruct (alookup path path_eq_dec p Ld) as [d|]; simpl.
  - destruct (needs_delete diff s d); simpl; [apply ss_take; auto|].
    destruct (needs_copy ss s d); simpl; [apply ss_take; auto | apply ss_skip; auto].
  - apply ss_take; auto.
Qed.
Lemma keys_delete_subseq diff Ls Ld :
  subseq_c (map fst (flat_map (delete_dec diff Ls) Ld)) (lkeys Ld).
Proof.
  induction Ld as [|[p d] Ld IH]; simpl; [constructor|].
  rewrite map_app. unfold delete_dec at 1, delete_decision.
  destruct (alookup path path_eq_dec p Ls) as [s|]; simpl.
  - destruct (needs_delete diff s d); simpl; [apply ss_take; auto | apply ss_skip; auto].
  - apply ss_take; auto.
Qed.

Lemma strict_prefix_neq a b : is_strict_prefix a b = true -> a <> b.
Proof.
  unfold is_strict_prefix, path_eqb. intros H Heq. apply andb_true_iff in H as [_ H].
  destruct (path_eq_dec a b); [discriminate|contradiction].
Qed.

(* every folder is created before its contents *)
Theorem copy_order diff ss Ls Ld :
  NoDup (lkeys Ls) -> parents_first (lkeys Ls) ->
  parents_first (map fst (a_copy (plan_spec diff ss Ls Ld))).
Proof.
  intros Hnd Hpf a b Ha Hb Hpre. cbn [plan_spec a_copy] in *.
  pose proof (keys_copy_subseq diff ss Ld Ls) as Hs.
  eapply before_subseq_inv; eauto.
  - apply strict_prefix_neq; auto.
  - apply Hpf; auto; eapply subseq_in; eauto.
Qed.

(* each entry is deleted before its parent folder *)
Theorem delete_order diff ss Ls Ld :
  NoDup (lkeys Ld) -> parents_first (lkeys Ld) ->
  children_first (map fst (a_delete (plan_spec diff ss Ls Ld))).
Proof.
  intros Hnd Hpf a b Ha Hb Hpre. cbn [plan_spec a_delete] in *.
  rewrite map_rev in *. apply before_rev.
  pose proof (keys_delete_subseq diff Ls Ld) as Hs.
  apply in_rev in Ha. apply in_rev in Hb.
  eapply before_subseq_inv; eauto.
  - apply strict_prefix_neq; auto.
  - apply Hpf; auto; eapply subseq_in; eauto.
Qed.

Lemma alookup_perm {V} (l l' : list (path * V)) k :
  Permutation l l' -> NoDup (map fst l) -> alookup path path_eq_dec k l = alookup path path_eq_dec k l'.
Proof.
  induction 1 as [|[k1 v1] l l' HP IH|[k1 v1] [k2 v2] l|l l' l'' HP1 IH1 HP2 IH2]; intros Hnd; simpl in *.
  - reflexivity.
  - inversion Hnd; subst. destruct (path_eq_dec k k1); auto.
  - inversion Hnd as [|? ? Hn1 Hnd']; subst. destruct (path_eq_dec k k2), (path_eq_dec k k1); auto.
    subst. exfalso. apply Hn1. simpl. auto.
  - rewrite IH1 by auto. apply IH2. eapply Permutation_NoDup; [apply Permutation_map; eauto|auto].
Qed.

Lemma Permutation_flat_map_ext {A B} (f g : A -> list B) l l' :
  Permutation l l' -> (forall a, f a = g a) -> Permutation (flat_map f l) (flat_map g l').
Proof.
  intros HP Hfg. rewrite (flat_map_ext f g Hfg). apply Permutation_flat_map. exact HP.
Qed.

Theorem sibling_order_irrelevant diff ss Ls Ls' Ld Ld' :
  Permutation Ls Ls' -> Permutation Ld Ld' -> NoDup (lkeys Ls) -> NoDup (lkeys Ld) ->
  Permutation (a_copy (plan_spec diff ss Ls Ld)) (a_copy (plan_spec diff ss Ls' Ld')) /\
  Permutation (a_delete (plan_spec diff ss Ls Ld)) (a_delete (plan_spec diff ss Ls' Ld')).
Proof.
  intros PS PD HS HD. cbn [plan_spec a_copy a_delete]. split.
  - apply Permutation_flat_map_ext; auto. intros [p s]. unfold copy_dec, copy_decision.
    rewrite (alookup_perm Ld Ld' p PD HD). reflexivity.
  - rewrite <- !Permutation_rev. apply Permutation_flat_map_ext; auto. intros [p d].
    unfold delete_dec, delete_decision. rewrite (alookup_perm Ls Ls' p PS HS). reflexivity.
Qed.

(* OrderedMap::update never hits a missing key (the two unwraps of ordered_map.rs:50) *)
Corollary planner_never_panics diff ss sg :
  NoDup (lkeys (srcs_c sg)) -> NoDup (lkeys (dests_c sg)) -> actions_of diff ss sg <> None.
Proof. intros Hs Hd. rewrite actions_of_spec by auto. discriminate. Qed.
