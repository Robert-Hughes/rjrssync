(* C08: while a file is being transferred - at every command boundary, inside every command (after
   create/truncate, after any part of a write, before and after the time stamp), under every write
   fault, refusal and early stop - the file never carries its final time stamp unless it holds exactly
   the complete data.  (States whose log holds a Through event are outside this statement; a run of the
   sync from valid, parents-first listings of a well-formed destination reaches none:
   Proofs/ConfineAll.no_run_goes_through_a_link.) *)
From RJ Require Import Base.Prelude Base.OrderedPlan Model.Settings Model.Core Model.Fs Model.Sync
  Proofs.FsProofs Proofs.StepProofs Proofs.ExecProofs.

(* every state a kill can leave behind while the doer executes one command *)
Definition cmd_states (fl : flavour) (st : dstate) (c : cmd) : list dstate :=
  match c with
  | CCreateOrUpdateFile p data set_mt more =>
      if blocked_at st p then [fst (doer_exec fl st c)]
      else if refuses st p then [fst (doer_exec fl st c)]
      else
        let st0 := with_failed st (if more then Some p else None) in
        match open_for_write st0 p with
        | OpErr _ => [fst (doer_exec fl st c)]
        | OpOutside st1 => [st1; fst (doer_exec fl st c)]
        | OpFile st1 =>
            st1 :: map (fun k => write_chunk (count_write st1) p (firstn k data)) (seq 0 (S (length data)))
                ++ [fst (doer_exec fl st c)]
        end
  | _ => [fst (doer_exec fl st c)]
  end.

Fixpoint run_states (fl : flavour) (st : dstate) (cmds : list cmd) : list dstate :=
  match cmds with
  | [] => []
  | c :: r => cmd_states fl st c ++ run_states fl (fst (doer_exec fl st c)) r
  end.

Lemma fst_if {A B} (b : bool) (x y : A * B) : fst (if b then x else y) = if b then fst x else fst y.
Proof. destruct b; reflexivity. Qed.

(* a kill state of a command is its last state, or - inside a chunk that is neither blocked nor refused -
   the state the open returned, or that state after a part of the data has been written *)
Lemma cmd_states_cases fl st c s : In s (cmd_states fl st c) ->
  s = fst (doer_exec fl st c) \/
  exists p data mt more st1, c = CCreateOrUpdateFile p data mt more /\ blocked_at st p = false /\ refuses st p = false /\
    ((open_for_write (with_failed st (if more then Some p else None)) p = OpOutside st1 /\ s = st1) \/
     (open_for_write (with_failed st (if more then Some p else None)) p = OpFile st1 /\
      (s = st1 \/ exists k, s = write_chunk (count_write st1) p (firstn k data)))).
Proof.
  destruct c; try (intros [<-|[]]; left; reflexivity). cbn [cmd_states].
  destruct (blocked_at st p) eqn:Hb; [intros [<-|[]]; left; reflexivity|].
  destruct (refuses st p) eqn:Hr; [intros [<-|[]]; left; reflexivity|].
  destruct (open_for_write _ p) as [st1|st1|e] eqn:Eo.
  - intros [<-|Hin]; [right; exists p, data, set_mt, more, st1; auto 8|].
    apply in_app_or in Hin as [Hin|[<-|[]]]; [|left; reflexivity].
    apply in_map_iff in Hin as (k & <- & _). right. exists p, data, set_mt, more, st1. eauto 10.
  - intros [<-|[<-|[]]]; [right; exists p, data, set_mt, more, st1; auto 8|left; reflexivity].
  - intros [<-|[]]. left; reflexivity.
Qed.

Section Group.
Variable fl : flavour.
Variable p : path.
Variable mt : Z.
Variable full : str.          (* the complete data of the file being transferred *)
Variable v0 : option node.    (* what was at p when the transfer started *)
Variable f0 : fs.             (* the tree when the transfer started *)
Hypothesis Hv0 : fget f0 p = v0.

(* what may be observed at p, and that nothing else moved *)
Definition safe (s : dstate) : Prop :=
  (forall q, q <> p -> fget (d_fs s) q = fget f0 q) /\
  (fget (d_fs s) p = v0 \/ (exists k d, fget (d_fs s) p = Some (NFile (TNow k) d)) \/
   fget (d_fs s) p = Some (NFile (TSet mt) full)).

(* the phase a transfer is in, given the chunks already handled [done] *)
Inductive phase (done : list str) (st : dstate) : Prop :=
| ph_start : done = [] -> d_open st = None -> d_fs st = f0 -> phase done st
| ph_healthy : done <> [] -> d_open st = Some p -> refuses st p = false ->
    (forall q, q <> p -> fget (d_fs st) q = fget f0 q) ->
    (exists k, fget (d_fs st) p = Some (NFile (TNow k) (concat done))) -> phase done st
| ph_failed : d_open st = None -> refuses st p = true ->
    (forall q, q <> p -> fget (d_fs st) q = fget f0 q) ->
    (fget (d_fs st) p = v0 \/ exists k d, fget (d_fs st) p = Some (NFile (TNow k) d)) -> phase done st.

Lemma phase_safe done st : phase done st -> safe st.
Proof.
  intros [Hd Ho Hf|Hd Ho Hr Hfr (k & Hk)|Ho Hr Hfr Hv]; split; auto.
  - intros q _. rewrite Hf. reflexivity.
  - left. rewrite Hf. exact Hv0.
  - right; left. eauto.
  - destruct Hv as [Hv|Hv]; [left; exact Hv|right; left; exact Hv].
Qed.

Lemma write_prefix_safe st1 data k :
  (forall q, q <> p -> fget (d_fs st1) q = fget f0 q) ->
  safe (write_chunk (count_write st1) p (firstn k data)).
Proof.
  intros Hfr. unfold write_chunk. split.
  - intros q Hq. dsimpl. rewrite fget_fset_ne by auto. apply Hfr. exact Hq.
  - right; left. dsimpl. rewrite fget_fset_eq. eauto.
Qed.

Lemma open_fresh st :
  d_open st = None ->
  (exists e, open_for_write st p = OpErr e) \/
  (exists q, open_for_write st p = OpOutside (with_event st (Through q))) \/
  open_for_write st p = OpFile (tick (with_fs st (fset (d_fs st) p (NFile (TNow (d_tick st)) [])))).
Proof.
  intros Ho. unfold open_for_write. rewrite Ho.
  destruct (resolve_above st p) as [|q|e]; [|right; left; eauto|left; eauto].
  destruct (fget (d_fs st) p) as [[m old| |t [| |]]|]; eauto.
Qed.

Lemma open_cont st m d :
  d_open st = Some p -> fget (d_fs st) p = Some (NFile m d) -> open_for_write st p = OpFile (with_open st None).
Proof.
  intros Ho Ef. unfold open_for_write. rewrite Ho, path_eqb_refl, Ef. reflexivity.
Qed.

Lemma concat_snoc (done : list str) (data : str) : concat (done ++ [data]) = concat done ++ data.
Proof. rewrite concat_app. cbn [concat]. rewrite app_nil_r. reflexivity. Qed.

Lemma refuses_flag st : x_failed (d_x st) = Some p -> refuses st p = true.
Proof. intros H. unfold refuses. rewrite H. apply path_eqb_refl. Qed.
Lemma refuses_none st : x_failed (d_x st) = None -> refuses st p = false.
Proof. intros H. unfold refuses. rewrite H. reflexivity. Qed.

Definition no_new_through (st s : dstate) : Prop := no_through (skipn (length (d_events st)) (d_events s)).

Lemma nnt_same st s : d_events s = d_events st -> no_new_through st s.
Proof. intros E. unfold no_new_through. rewrite E, skipn_all. reflexivity. Qed.
Lemma nnt_through st s q : d_events s = d_events st ++ [Through q] -> ~ no_new_through st s.
Proof.
  intros E H. unfold no_new_through in H. rewrite E, skipn_app, skipn_all, Nat.sub_diag in H. cbn in H. discriminate.
Qed.

(* the file part of a successful (or write-failed) chunk, given the state in which the file is open *)
Lemma opened_states (st0 st1 : dstate) (data : str) (set_mt : option Z) (more : bool) (old : str) (k1 : N) :
  (forall q, q <> p -> fget (d_fs st1) q = fget f0 q) ->
  fget (d_fs st1) p = Some (NFile (TNow k1) old) ->
  x_failed (d_x st1) = (if more then Some p else None) ->
  d_events st1 = d_events st0 ->
  (more = true -> set_mt = None) ->
  (more = false -> set_mt = Some mt /\ old ++ data = full) ->
  let stw := write_chunk (count_write st1) p data in
  let fin := if write_fails st1 then with_open stw None
             else match set_mt with
                  | Some t => stamp_file (with_failed (with_open stw (if more then Some p else None)) None) p t
                  | None => with_failed (with_open stw (if more then Some p else None)) None
                  end in
  (forall s, In s (st1 :: map (fun k => write_chunk (count_write st1) p (firstn k data)) (seq 0 (S (length data))) ++ [fin]) -> safe s) /\
  (if more then
     (d_open fin = None /\ refuses fin p = true /\ (forall q, q <> p -> fget (d_fs fin) q = fget f0 q) /\
      exists k d, fget (d_fs fin) p = Some (NFile (TNow k) d)) \/
     (d_open fin = Some p /\ refuses fin p = false /\ (forall q, q <> p -> fget (d_fs fin) q = fget f0 q) /\
      exists k, fget (d_fs fin) p = Some (NFile (TNow k) (old ++ data)))
   else safe fin /\ d_open fin = None).
Proof.
  intros Hfr Ep Hx Hev Hm1 Hm0 stw fin. subst stw.
  assert (Hfrw : forall dd q, q <> p -> fget (d_fs (write_chunk (count_write st1) p dd)) q = fget f0 q).
  { intros dd q Hq. unfold write_chunk. dsimpl. rewrite fget_fset_ne by auto. apply Hfr; exact Hq. }
  assert (Hpw : forall dd, fget (d_fs (write_chunk (count_write st1) p dd)) p = Some (NFile (TNow (d_tick st1)) (old ++ dd))).
  { intros dd. unfold write_chunk, file_data. dsimpl. rewrite fget_fset_eq. cbn [d_fs count_write]. rewrite Ep. reflexivity. }
  assert (Hfin_fr : forall q, q <> p -> fget (d_fs fin) q = fget f0 q).
  { intros q Hq. unfold fin. destruct (write_fails st1); [dsimpl; apply Hfrw; exact Hq|].
    destruct set_mt; [unfold stamp_file; dsimpl; rewrite fget_fset_ne by auto|dsimpl]; apply Hfrw; exact Hq. }
  assert (Hsf : safe fin).
  { split; [exact Hfin_fr|]. unfold fin. destruct (write_fails st1); [right; left; dsimpl; rewrite Hpw; eauto|].
    destruct more; [rewrite (Hm1 eq_refl); right; left; dsimpl; rewrite Hpw; eauto|].
    destruct (Hm0 eq_refl) as [-> Hfull]. right; right. unfold stamp_file, file_data. dsimpl.
    rewrite fget_fset_eq. cbn [d_fs with_failed with_open]. rewrite Hpw, Hfull. reflexivity. }
  split.
  - intros s [<-|Hin]; [split; [exact Hfr|right; left; eauto]|].
    apply in_app_or in Hin as [Hin|[<-|[]]]; [|exact Hsf].
    apply in_map_iff in Hin as (k & <- & _). apply write_prefix_safe. exact Hfr.
  - destruct more.
    + unfold fin. destruct (write_fails st1).
      * left. split; [reflexivity|]. split; [apply refuses_flag; dsimpl; unfold write_chunk; dsimpl; exact Hx|].
        split; [intros q Hq; dsimpl; apply Hfrw; exact Hq|]. dsimpl. rewrite Hpw. eauto.
      * rewrite (Hm1 eq_refl). right. split; [reflexivity|]. split; [apply refuses_none; reflexivity|].
        split; [intros q Hq; dsimpl; apply Hfrw; exact Hq|]. dsimpl. rewrite Hpw. eauto.
    + split; [exact Hsf|]. unfold fin. destruct (write_fails st1); [reflexivity|].
      destruct (Hm0 eq_refl) as [-> _]. reflexivity.
Qed.

(* One chunk command from any phase: every observable state is safe (unless a Through event was logged),
   and the transfer ends up in a phase again - or, for the last chunk, in a safe final state. *)
Lemma chunk_step done st data set_mt more :
  blocked_at st p = false ->
  phase done st ->
  (more = true -> set_mt = None) ->
  (more = false -> set_mt = Some mt /\ concat (done ++ [data]) = full) ->
  let c := CCreateOrUpdateFile p data set_mt more in
  (forall s, In s (cmd_states fl st c) -> no_new_through st s -> safe s) /\
  (no_new_through st (fst (doer_exec fl st c)) ->
     if more then phase (done ++ [data]) (fst (doer_exec fl st c))
     else safe (fst (doer_exec fl st c)) /\ d_open (fst (doer_exec fl st c)) = None).
Proof.
  intros Hb Hph Hm1 Hm0 c. subst c. cbn [cmd_states doer_exec]. rewrite Hb.
  pose proof (phase_safe done st Hph) as Hsafe0.
  assert (Hfr0 : forall q, q <> p -> fget (d_fs st) q = fget f0 q) by (destruct Hsafe0; assumption).
  assert (Hval0 : fget (d_fs st) p = v0 \/ exists k d, fget (d_fs st) p = Some (NFile (TNow k) d)).
  { destruct Hph as [Hd Ho Hf|Hd Ho Hr _ (k & Hk)|Ho Hr _ Hv]; [left; rewrite Hf; exact Hv0|right; eauto|exact Hv]. }
  assert (Hsame_safe : forall s, d_fs s = d_fs st -> safe s).
  { intros s Hs. split; [intros q Hq; rewrite Hs; apply Hfr0; exact Hq|]. rewrite Hs.
    destruct Hval0 as [H|H]; [left; exact H|right; left; exact H]. }
  assert (Hfailed_phase : forall s, d_fs s = d_fs st -> d_open s = None -> x_failed (d_x s) = Some p -> phase (done ++ [data]) s).
  { intros s Hs Ho Hx. apply ph_failed; auto.
    - apply refuses_flag. exact Hx.
    - intros q Hq. rewrite Hs. apply Hfr0. exact Hq.
    - rewrite Hs. exact Hval0. }
  destruct (refuses st p) eqn:Eref.
  - (* refused: nothing moves *)
    cbn [fst]. split.
    + intros s [<-|[]] _. apply Hsame_safe. reflexivity.
    + intros _. destruct more.
      * destruct Hph as [Hd Ho Hf|Hd Ho Hr _ _|Ho Hr _ _]; [|congruence|]; apply Hfailed_phase; auto.
      * split; [apply Hsame_safe; reflexivity|]. dsimpl.
        destruct Hph as [Hd Ho Hf|Hd Ho Hr _ _|Ho Hr _ _]; [exact Ho|congruence|exact Ho].
  - set (st0 := with_failed st (if more then Some p else None)).
    (* a fresh open (first chunk) and the continuation of an open transfer end in the same three ways *)
    assert (Hopen : (exists e, open_for_write st0 p = OpErr e) \/
                    (exists q, open_for_write st0 p = OpOutside (with_event st0 (Through q))) \/
                    exists st1 k1, open_for_write st0 p = OpFile st1 /\ (forall q, q <> p -> fget (d_fs st1) q = fget f0 q) /\
                      fget (d_fs st1) p = Some (NFile (TNow k1) (concat done)) /\
                      x_failed (d_x st1) = (if more then Some p else None) /\ d_events st1 = d_events st0).
    { destruct Hph as [Hd Ho Hf|Hd Ho Hr Hfr (k0 & Hk0)|Ho Hr _ _]; [| |congruence].
      - subst done. destruct (open_fresh st0 Ho) as [He|[Hq|Eo]]; [left; exact He|right; left; exact Hq|].
        right; right. eexists; exists (d_tick st0). split; [exact Eo|]. dsimpl.
        repeat split; [|apply fget_fset_eq]. intros q Hq. rewrite fget_fset_ne by exact Hq. apply Hfr0. exact Hq.
      - right; right. exists (with_open st0 None), k0. split; [eapply open_cont; [exact Ho|exact Hk0]|]. repeat split; assumption. }
    destruct Hopen as [(e & Eo)|[(q & Eo)|(st1 & k1 & Eo & Hfr1 & Ep1 & Hx1 & Hev1)]]; rewrite Eo; cbn [fst].
    + split.
      * intros s [<-|[]] _. apply Hsame_safe. reflexivity.
      * intros _. destruct more; [apply Hfailed_phase; auto|split; [apply Hsame_safe; reflexivity|reflexivity]].
    + split.
      * intros s [<-|[<-|[]]] Hnt; exfalso; eapply nnt_through; eauto; reflexivity.
      * intros Hnt. exfalso. eapply nnt_through; eauto. reflexivity.
    + rewrite !fst_if. cbn [fst].
      destruct (opened_states st0 st1 data set_mt more (concat done) k1 Hfr1 Ep1 Hx1 Hev1 Hm1) as [Hs Hf'].
      { intros Hmf. destruct (Hm0 Hmf) as [Hs' Hfull]. split; [exact Hs'|]. rewrite concat_snoc in Hfull. exact Hfull. }
      split; [intros s Hin _; apply Hs; exact Hin|]. intros _.
      destruct more; [|exact Hf'].
      destruct Hf' as [(F1 & F2 & F3 & F4)|(F1 & F2 & F3 & (k & F4))]; [apply ph_failed; auto|].
      apply ph_healthy; auto; [destruct done; discriminate|]. exists k. rewrite concat_snoc. exact F4.
Qed.

End Group.

Lemma cmd_states_events fl st c s : In s (cmd_states fl st c) -> exists l, d_events s = d_events st ++ l.
Proof.
  intros Hin. apply cmd_states_cases in Hin as [->|(p & data & mt & more & st1 & _ & _ & _ & [(Eo & ->)|(Eo & Hs)])].
  - apply doer_exec_events.
  - apply (open_same _ _ _ (or_intror Eo)).
  - destruct (open_same _ _ _ (or_introl Eo)) as (_ & _ & He & _). destruct Hs as [->|(k & ->)]; exact He.
Qed.
Lemma cmd_states_chunk_events fl st p data set_mt more s :
  In s (cmd_states fl st (CCreateOrUpdateFile p data set_mt more)) -> exists l, d_events s = d_events st ++ l.
Proof. apply cmd_states_events. Qed.

Lemma nonmut_noop fl st c : mutating c = false -> doer_exec fl st c = (st, None).
Proof. destruct c; try discriminate; reflexivity. Qed.

(* a command that is not a file chunk neither opens or closes a transfer nor produces a time-stamped file *)
Lemma nonchunk_exec fl st c :
  is_chunk c = false ->
  d_open (fst (doer_exec fl st c)) = d_open st /\
  forall q mt d, fget (d_fs (fst (doer_exec fl st c))) q = Some (NFile (TSet mt) d) ->
                 fget (d_fs st) q = Some (NFile (TSet mt) d).
Proof.
  intros Hc. destruct (doer_exec_nc fl st c Hc) as [| | | | |p n Hn|p Hd]; (split; [reflexivity|]); dsimpl;
    intros x mt d Hx; try exact Hx.
  - rewrite fget_fset in Hx. destruct (path_eq_dec x p); [destruct Hn; discriminate Hx|exact Hx].
  - rewrite fget_fdel in Hx. destruct (path_eq_dec x p); [discriminate Hx|exact Hx].
Qed.

Section Plan.
Variable fl : flavour.
Variable ft : faults.

Definition stopped (r : rstate) (c : cmd) : bool :=
  mutating c && match ft_stop ft with Some n => Nat.leb n (rs_mut r) | None => false end.
Definition injected (r : rstate) (c : cmd) : bool :=
  mutating c && negb (is_chunk c) && mem_nat (rs_mut r) (ft_dest ft).

(* the command the destination doer really executes in this step, if any *)
Definition executes (r : rstate) (s : bstep) : option cmd :=
  if rs_srcfail r then None else
  match rs_budget r with
  | Some O => None
  | _ => match s with
         | SrcFetch _ => None
         | DestCmd c => if stopped r c then None else if injected r c then None else Some c
         end
  end.

Lemma executes_some r s c : executes r s = Some c -> s = DestCmd c.
Proof.
  unfold executes. destruct (rs_srcfail r); [discriminate|].
  destruct (rs_budget r) as [[|k]|]; [discriminate| |]; (destruct s as [c'|q]; [|discriminate]);
    destruct (stopped r c'); try discriminate; destruct (injected r c'); try discriminate;
    intros H; inversion H; reflexivity.
Qed.
Lemma executes_fetch r q : executes r (SrcFetch q) = None.
Proof. unfold executes. destruct (rs_srcfail r); [reflexivity|]. destruct (rs_budget r) as [[|k]|]; reflexivity. Qed.

Lemma do_step_d r s :
  rs_d (do_step fl ft r s) =
  match s with
  | SrcFetch _ => rs_d r
  | DestCmd c => if stopped r c then rs_d r else if injected r c then inj_state (rs_d r) c else fst (doer_exec fl (rs_d r) c)
  end.
Proof.
  unfold do_step, stopped, injected. destruct s as [c|q]; [|reflexivity]. cbv zeta.
  destruct (mutating c && match ft_stop ft with Some n => Nat.leb n (rs_mut r) | None => false end); cbn [fst snd rs_d]; [reflexivity|].
  destruct (mutating c && negb (is_chunk c) && mem_nat (rs_mut r) (ft_dest ft)); cbn [fst snd rs_d]; [reflexivity|].
  destruct (snd (doer_exec fl (rs_d r) c)); reflexivity.
Qed.

(* the doer's state after a step in which it executes nothing: unchanged, except that an injected failure of
   a deletion is remembered as a failed deletion *)
Definition idle_d (r : rstate) (s : bstep) : dstate :=
  if rs_srcfail r then rs_d r else
  match rs_budget r with
  | Some O => rs_d r
  | _ => match s with
         | SrcFetch _ => rs_d r
         | DestCmd c => if stopped r c then rs_d r else if injected r c then inj_state (rs_d r) c else rs_d r
         end
  end.

Lemma inj_state_same st c : d_fs (inj_state st c) = d_fs st /\ d_open (inj_state st c) = d_open st /\
  d_events (inj_state st c) = d_events st /\ d_anc (inj_state st c) = d_anc st.
Proof. destruct c; repeat split; reflexivity. Qed.
Lemma idle_same r s : d_fs (idle_d r s) = d_fs (rs_d r) /\ d_open (idle_d r s) = d_open (rs_d r) /\
  d_events (idle_d r s) = d_events (rs_d r) /\ d_anc (idle_d r s) = d_anc (rs_d r).
Proof.
  unfold idle_d. destruct (rs_srcfail r); [repeat split; reflexivity|].
  destruct (rs_budget r) as [[|k]|]; [repeat split; reflexivity| |]; (destruct s as [c|q]; [|repeat split; reflexivity]);
    destruct (stopped r c); try (repeat split; reflexivity); destruct (injected r c); try (repeat split; reflexivity); apply inj_state_same.
Qed.
Lemma idle_fetch r q : idle_d r (SrcFetch q) = rs_d r.
Proof. unfold idle_d. destruct (rs_srcfail r); [reflexivity|]. destruct (rs_budget r) as [[|k]|]; reflexivity. Qed.
Lemma idle_chunk r c : is_chunk c = true -> idle_d r (DestCmd c) = rs_d r.
Proof.
  intros Hc. unfold idle_d, injected. rewrite Hc. cbn [negb]. rewrite andb_false_r. cbn [andb].
  destruct (rs_srcfail r); [reflexivity|]. destruct (rs_budget r) as [[|k]|]; try reflexivity; destruct (stopped r c); reflexivity.
Qed.

Lemma run_step_d r s :
  rs_d (run_step fl ft r s) = match executes r s with Some c => fst (doer_exec fl (rs_d r) c) | None => idle_d r s end.
Proof.
  unfold run_step, executes, idle_d. destruct (rs_srcfail r); [reflexivity|].
  destruct (rs_budget r) as [[|k]|]; [reflexivity| |]; rewrite do_step_d; destruct s as [c|q]; try reflexivity;
    destruct (stopped r c); try reflexivity; destruct (injected r c); reflexivity.
Qed.

Lemma do_step_mut r s : rs_mut r <= rs_mut (do_step fl ft r s).
Proof.
  unfold do_step. destruct s as [c|q]; cbv zeta; [|cbn [rs_mut]; lia].
  destruct (snd _); cbn [rs_mut]; destruct (mutating c); lia.
Qed.
Lemma run_step_mut r s : rs_mut r <= rs_mut (run_step fl ft r s).
Proof.
  destruct (run_step_cases fl ft r s) as [->| ->]; [lia|apply do_step_mut].
Qed.

(* nothing mutating is executed any more *)
Definition dead (r : rstate) : Prop :=
  rs_srcfail r = true \/ rs_budget r = Some 0 \/ exists n, ft_stop ft = Some n /\ n <= rs_mut r.

Lemma dead_step r s : dead r -> dead (run_step fl ft r s).
Proof.
  intros [H|[H|(n & Hn & Hle)]].
  - unfold run_step. rewrite H. left; exact H.
  - unfold run_step. rewrite H. destruct (rs_srcfail r) eqn:E; [left; exact E|right; left; exact H].
  - right; right. exists n. split; [exact Hn|]. pose proof (run_step_mut r s). lia.
Qed.

Lemma executes_dead r s c : dead r -> executes r s = Some c -> mutating c = false.
Proof.
  unfold executes. intros Hd. destruct (rs_srcfail r) eqn:Es; [discriminate|].
  destruct Hd as [H|[H|(n & Hn & Hle)]]; [congruence|rewrite H; discriminate|].
  assert (Hst : forall c', mutating c' = true -> stopped r c' = true).
  { intros c' Hm. unfold stopped. rewrite Hm, Hn. cbn [andb]. apply Nat.leb_le. exact Hle. }
  destruct (rs_budget r) as [[|k]|]; [discriminate| |]; (destruct s as [c'|q]; [|discriminate]);
    destruct (mutating c') eqn:Em; try (rewrite (Hst c' Em); discriminate);
    destruct (stopped r c'); try discriminate; destruct (injected r c'); try discriminate;
    intros H; inversion H; subst; exact Em.
Qed.

Lemma idle_dead r s : dead r -> idle_d r s = rs_d r.
Proof.
  unfold idle_d. intros Hd. destruct (rs_srcfail r) eqn:Es; [reflexivity|].
  destruct Hd as [H|[H|(n & Hn & Hle)]]; [congruence|rewrite H; reflexivity|].
  destruct (rs_budget r) as [[|k]|]; [reflexivity| |]; (destruct s as [c|q]; [|reflexivity]);
    unfold stopped, injected; rewrite Hn; destruct (mutating c); cbn [andb]; try reflexivity;
    assert (Hl : Nat.leb n (rs_mut r) = true) by (apply Nat.leb_le; exact Hle); rewrite Hl; reflexivity.
Qed.

Lemma stopped_dead r c : stopped r c = true -> dead r.
Proof.
  unfold stopped. intros H. apply andb_true_iff in H as [_ H]. destruct (ft_stop ft) as [n|] eqn:En; [|discriminate].
  right; right. exists n. split; [exact En|apply Nat.leb_le, H].
Qed.

(* a command that the doer does not execute: the run is dead, or the fault plan fails the command *)
Lemma not_executed r c : executes r (DestCmd c) = None ->
  dead r \/ (injected r c = true /\ idle_d r (DestCmd c) = inj_state (rs_d r) c).
Proof.
  unfold executes, idle_d. destruct (rs_srcfail r) eqn:Es; [left; left; exact Es|].
  destruct (rs_budget r) as [[|k]|] eqn:Eb; [left; right; left; exact Eb| |];
    (destruct (stopped r c) eqn:Est; [left; exact (stopped_dead r c Est)|]);
    (destruct (injected r c); [right; split; reflexivity|discriminate]).
Qed.

Lemma injected_nonchunk r c : injected r c = true -> is_chunk c = false.
Proof. unfold injected. destruct (is_chunk c); [rewrite andb_false_r; discriminate|reflexivity]. Qed.

Lemma chunk_skipped_dead r c : is_chunk c = true -> executes r (DestCmd c) = None -> dead (run_step fl ft r (DestCmd c)).
Proof.
  intros Hc E. apply dead_step. destruct (not_executed r c E) as [Hd|[Hi _]]; [exact Hd|].
  apply injected_nonchunk in Hi. congruence.
Qed.

(* a mutating command is executed by a run that is alive, or dropped because the run is dead, or failed by
   the fault plan before the doer sees it *)
Lemma dest_step_cases r c : mutating c = true ->
  (~ dead r /\ rs_d (run_step fl ft r (DestCmd c)) = fst (doer_exec fl (rs_d r) c)) \/
  (dead r /\ rs_d (run_step fl ft r (DestCmd c)) = rs_d r) \/
  (is_chunk c = false /\ rs_d (run_step fl ft r (DestCmd c)) = inj_state (rs_d r) c).
Proof.
  intros Hm. rewrite run_step_d. destruct (executes r (DestCmd c)) as [c0|] eqn:E.
  - left. apply executes_some in E as E'. injection E' as <-. split; [|reflexivity].
    intros Hd. rewrite (executes_dead r _ c Hd E) in Hm. discriminate.
  - right. destruct (not_executed r c E) as [Hd|[Hi Hs]]; [left; split; [exact Hd|apply idle_dead, Hd]|].
    right. split; [exact (injected_nonchunk r c Hi)|exact Hs].
Qed.

(* every state of the destination that a kill (or a lost link) can leave behind during these steps *)
Definition step_states (r : rstate) (s : bstep) : list dstate :=
  match executes r s with Some c => cmd_states fl (rs_d r) c | None => [] end.
Fixpoint steps_states (r : rstate) (steps : list bstep) : list dstate :=
  match steps with
  | [] => []
  | s :: rest => step_states r s ++ steps_states (run_step fl ft r s) rest
  end.

Lemma steps_states_app steps1 : forall r steps2,
  steps_states r (steps1 ++ steps2) = steps_states r steps1 ++ steps_states (run_steps fl ft r steps1) steps2.
Proof.
  induction steps1 as [|s rest IH]; intros r steps2; [reflexivity|].
  cbn [app steps_states]. rewrite IH, <- app_assoc. reflexivity.
Qed.
Lemma run_steps_app steps1 steps2 r : run_steps fl ft r (steps1 ++ steps2) = run_steps fl ft (run_steps fl ft r steps1) steps2.
Proof. unfold run_steps. apply fold_left_app. Qed.

(* What every step keeps (I, about the run state) and establishes of its kill states (Q) holds of a step
   list: of all its kill states and of the run state after it. *)
Lemma steps_inv (I : rstate -> Prop) (Q : dstate -> Prop) steps :
  (forall r s, In s steps -> I r -> I (run_step fl ft r s) /\ forall x, In x (step_states r s) -> Q x) ->
  forall r, I r -> (forall x, In x (steps_states r steps) -> Q x) /\ I (run_steps fl ft r steps).
Proof.
  induction steps as [|s rest IH]; intros Hstep r Hr; [split; [intros x []|exact Hr]|].
  rewrite run_steps_cons. cbn [steps_states]. destruct (Hstep r s (or_introl eq_refl) Hr) as [H1 H2].
  destruct (IH (fun r' s' Hin => Hstep r' s' (or_intror Hin)) _ H1) as [I1 I2].
  split; [|exact I2]. intros x Hin. apply in_app_or in Hin as [Hin|Hin]; [apply H2|apply I1]; exact Hin.
Qed.

Lemma step_states_in r s x : In x (step_states r s) -> exists c, executes r s = Some c /\ In x (cmd_states fl (rs_d r) c).
Proof. unfold step_states. destruct (executes r s) as [c|]; [eauto|intros []]. Qed.

Lemma run_step_events r s : exists l, d_events (rs_d (run_step fl ft r s)) = d_events (rs_d r) ++ l.
Proof.
  rewrite run_step_d. destruct (executes r s); [apply doer_exec_events|apply ev_le_same; apply (idle_same r s)].
Qed.
Lemma steps_events steps r0 :
  (forall s, In s (steps_states r0 steps) -> ev_le (rs_d r0) s) /\ ev_le (rs_d r0) (rs_d (run_steps fl ft r0 steps)).
Proof.
  apply (steps_inv (fun r => ev_le (rs_d r0) (rs_d r)) (ev_le (rs_d r0))); [|apply ev_le_refl].
  intros r s _ Hr. split; [eapply ev_le_trans; [exact Hr|apply run_step_events]|].
  intros x Hin. apply step_states_in in Hin as (c & _ & Hin). eapply ev_le_trans; [exact Hr|eapply cmd_states_events; exact Hin].
Qed.
Lemma run_steps_events steps : forall r, exists l, d_events (rs_d (run_steps fl ft r steps)) = d_events (rs_d r) ++ l.
Proof. intros r. apply steps_events. Qed.
Lemma steps_states_events steps : forall r s, In s (steps_states r steps) -> exists l, d_events s = d_events (rs_d r) ++ l.
Proof. intros r. apply steps_events. Qed.

Lemma dead_frozen steps : forall r, dead r ->
  (forall s, In s (steps_states r steps) -> s = rs_d r) /\ rs_d (run_steps fl ft r steps) = rs_d r /\ dead (run_steps fl ft r steps).
Proof.
  intros r0 Hd0. apply (steps_inv (fun r => rs_d r = rs_d r0 /\ dead r) (fun s => s = rs_d r0)); [|split; [reflexivity|exact Hd0]].
  intros r s _ [Hr Hd]. rewrite <- Hr.
  assert (Hnoop : forall c, executes r s = Some c -> doer_exec fl (rs_d r) c = (rs_d r, None) /\ cmd_states fl (rs_d r) c = [rs_d r]).
  { intros c E. pose proof (executes_dead r s c Hd E) as Hm. split; [apply nonmut_noop; exact Hm|].
    destruct c; try discriminate Hm; reflexivity. }
  split; [split; [|apply dead_step; exact Hd]|].
  - rewrite run_step_d. destruct (executes r s) as [c|] eqn:E; [|apply idle_dead; exact Hd].
    destruct (Hnoop c eq_refl) as [-> _]. reflexivity.
  - intros x Hin. apply step_states_in in Hin as (c & E & Hin). destruct (Hnoop c E) as [_ Hcs].
    rewrite Hcs in Hin. destruct Hin as [<-|[]]. reflexivity.
Qed.

End Plan.

Lemma nt_prefix a l : no_through (a ++ l) -> no_through a.
Proof. intros H. apply no_through_app in H. tauto. Qed.
Lemma nt_dec l : {no_through l} + {~ no_through l}.
Proof. unfold no_through. destruct (forallb _ l); [left; reflexivity|right; discriminate]. Qed.
Lemma no_new_of_no_through st s :
  (exists l, d_events s = d_events st ++ l) -> no_through (d_events s) -> no_new_through st s.
Proof.
  intros (l & E) H. unfold no_new_through. rewrite E in *. rewrite skipn_app, skipn_all, Nat.sub_diag.
  cbn [skipn app]. apply no_through_app in H. tauto.
Qed.

(* a chunk command never adds to the failed deletions; a blocked one does nothing at all *)
Lemma open_keeps_faildel st p st1 :
  open_for_write st p = OpFile st1 \/ open_for_write st p = OpOutside st1 -> x_faildel (d_x st1) = x_faildel (d_x st).
Proof. intros H. apply open_same in H as [-> _]. reflexivity. Qed.
Lemma chunk_keeps_faildel fl st p data set_mt more :
  x_faildel (d_x (fst (doer_exec fl st (CCreateOrUpdateFile p data set_mt more)))) = x_faildel (d_x st).
Proof. apply chunk_same. Qed.
Lemma blocked_same st st' p : x_faildel (d_x st') = x_faildel (d_x st) -> blocked_at st' p = blocked_at st p.
Proof. unfold blocked_at. intros ->. reflexivity. Qed.
Lemma blocked_chunk_noop fl st p data set_mt more :
  blocked_at st p = true ->
  doer_exec fl st (CCreateOrUpdateFile p data set_mt more) = (st, Some ERefused) /\
  cmd_states fl st (CCreateOrUpdateFile p data set_mt more) = [st].
Proof. intros H. cbn [cmd_states doer_exec]. rewrite H. split; reflexivity. Qed.

Section FileBlock.
Variable fl : flavour.
Variable ft : faults.
Variable p : path.
Variable mt : Z.
Variable full : str.
Variable f0 : fs.
Notation v0 := (fget f0 p).
Notation safe' := (safe p mt full v0 f0).
Notation phase' := (phase p v0 f0).

(* one chunk of the file: its kill states are safe; either it is not executed, and then nothing mutating is
   executed after it either, or the transfer moves on to the next phase (to a safe end, for the last chunk) *)
Lemma chunk_run_step done r c smt more :
  phase' done (rs_d r) -> blocked_at (rs_d r) p = false ->
  (more = true -> smt = None) -> (more = false -> smt = Some mt /\ concat (done ++ [c]) = full) ->
  let r1 := run_step fl ft r (DestCmd (CCreateOrUpdateFile p c smt more)) in
  (forall s, In s (step_states fl ft r (DestCmd (CCreateOrUpdateFile p c smt more))) -> no_through (d_events s) -> safe' s) /\
  blocked_at (rs_d r1) p = false /\
  (dead ft r1 /\ rs_d r1 = rs_d r \/
   (no_through (d_events (rs_d r1)) ->
    if more then phase' (done ++ [c]) (rs_d r1) else safe' (rs_d r1) /\ d_open (rs_d r1) = None)).
Proof.
  intros Hph Hb Hm1 Hm0. cbv zeta. set (cmd := CCreateOrUpdateFile p c smt more). unfold step_states. rewrite run_step_d.
  destruct (executes ft r (DestCmd cmd)) as [c0|] eqn:E.
  - apply executes_some in E as E'. inversion E'; subst c0. clear E'.
    destruct (chunk_step fl p mt full v0 f0 eq_refl done (rs_d r) c smt more Hb Hph Hm1 Hm0) as [Hs Hf].
    split; [|split].
    + intros s Hin Hnt. apply Hs; [exact Hin|]. apply no_new_of_no_through; [eapply cmd_states_events; exact Hin|exact Hnt].
    + erewrite blocked_same; [exact Hb|apply chunk_keeps_faildel].
    + right. intros Hnt. apply Hf. apply no_new_of_no_through; [apply doer_exec_events|exact Hnt].
  - rewrite (idle_chunk ft r cmd eq_refl). split; [intros s []|]. split; [exact Hb|]. left.
    split; [apply chunk_skipped_dead; [reflexivity|exact E]|reflexivity].
Qed.

Lemma file_block : forall chunks done r,
  chunks <> [] -> concat (done ++ chunks) = full -> phase' done (rs_d r) -> blocked_at (rs_d r) p = false ->
  (forall s, In s (steps_states fl ft r (chunk_cmds p mt chunks)) -> no_through (d_events s) -> safe' s) /\
  (no_through (d_events (rs_d (run_steps fl ft r (chunk_cmds p mt chunks)))) ->
   safe' (rs_d (run_steps fl ft r (chunk_cmds p mt chunks))) /\
   (d_open (rs_d (run_steps fl ft r (chunk_cmds p mt chunks))) = None \/ dead ft (run_steps fl ft r (chunk_cmds p mt chunks)))).
Proof.
  induction chunks as [|c rest IH]; intros done r Hne Hfull Hph Hb; [congruence|].
  pose proof (phase_safe p mt full v0 f0 eq_refl done (rs_d r) Hph) as Hsafe_r.
  destruct rest as [|c2 rest'].
  - (* the last chunk *)
    cbn [chunk_cmds steps_states]. rewrite app_nil_r.
    change (run_steps fl ft r [DestCmd (CCreateOrUpdateFile p c (Some mt) false)])
      with (run_step fl ft r (DestCmd (CCreateOrUpdateFile p c (Some mt) false))).
    destruct (chunk_run_step done r c (Some mt) false Hph Hb) as (Hs & _ & Hf);
      [discriminate|intros _; split; [reflexivity|exact Hfull]|].
    split; [exact Hs|]. intros Hnt. destruct Hf as [[Hd ->]|Hf]; [split; [exact Hsafe_r|right; exact Hd]|].
    destruct (Hf Hnt) as [H1 H2]. split; [exact H1|left; exact H2].
  - (* a chunk with more to follow *)
    change (chunk_cmds p mt (c :: c2 :: rest')) with (DestCmd (CCreateOrUpdateFile p c None true) :: chunk_cmds p mt (c2 :: rest')).
    rewrite run_steps_cons. cbn [steps_states].
    destruct (chunk_run_step done r c None true Hph Hb) as (Hs & Hb1 & Hf); [reflexivity|discriminate|].
    set (r1 := run_step fl ft r (DestCmd (CCreateOrUpdateFile p c None true))) in *.
    destruct Hf as [[Hdead Hd1]|Hf].
    + (* not executed: nothing mutating is executed after it either *)
      destruct (dead_frozen fl ft (chunk_cmds p mt (c2 :: rest')) r1 Hdead) as (F1 & F2 & F3).
      split.
      * intros s Hin Hnt. apply in_app_or in Hin as [Hin|Hin]; [apply Hs; assumption|]. rewrite (F1 s Hin), Hd1. exact Hsafe_r.
      * intros _. rewrite F2, Hd1. split; [exact Hsafe_r|right; exact F3].
    + assert (HIH := fun Hnt1 => IH (done ++ [c]) r1 ltac:(discriminate)
                        ltac:(rewrite <- app_assoc; exact Hfull) (Hf Hnt1) Hb1).
      destruct (steps_events fl ft (chunk_cmds p mt (c2 :: rest')) r1) as [E1 E2].
      split.
      * intros s Hin Hnt. apply in_app_or in Hin as [Hin|Hin]; [apply Hs; assumption|].
        apply HIH; [exact (ev_le_no_through _ _ (E1 s Hin) Hnt)|exact Hin|exact Hnt].
      * intros Hnt. apply HIH; [exact (ev_le_no_through _ _ E2 Hnt)|exact Hnt].
Qed.

End FileBlock.

Lemma chunk_cmds_shape p mt chunks s : In s (chunk_cmds p mt chunks) -> exists d smt more, s = DestCmd (CCreateOrUpdateFile p d smt more).
Proof.
  induction chunks as [|c rest IH]; [intros []|]. destruct rest as [|c2 rest'].
  - intros [<-|[]]. eauto.
  - change (chunk_cmds p mt (c :: c2 :: rest')) with (DestCmd (CCreateOrUpdateFile p c None true) :: chunk_cmds p mt (c2 :: rest')).
    intros [<-|H]; [eauto|apply IH; exact H].
Qed.

(* a file whose path lies at or below a failed deletion: every chunk command is refused, nothing moves *)
Lemma blocked_steps fl ft p steps : (forall s, In s steps -> exists d smt more, s = DestCmd (CCreateOrUpdateFile p d smt more)) ->
  forall r, blocked_at (rs_d r) p = true ->
  (forall s, In s (steps_states fl ft r steps) -> s = rs_d r) /\ rs_d (run_steps fl ft r steps) = rs_d r.
Proof.
  intros Hall r0 Hb0. apply (steps_inv fl ft (fun r => rs_d r = rs_d r0) (fun s => s = rs_d r0)); [|reflexivity].
  intros r st Hin Hr. destruct (Hall st Hin) as (d & smt & more & ->). rewrite <- Hr in *.
  destruct (blocked_chunk_noop fl (rs_d r) p d smt more Hb0) as [Hex Hcs]. split.
  - rewrite run_step_d. destruct (executes ft r _) as [c0|] eqn:E; [|apply idle_chunk; reflexivity].
    apply executes_some in E. inversion E; subst c0. rewrite Hex. reflexivity.
  - intros x Hx. apply step_states_in in Hx as (c0 & E & Hx). apply executes_some in E. inversion E; subst c0.
    rewrite Hcs in Hx. destruct Hx as [<-|[]]. reflexivity.
Qed.

(* Generic form: any invariant of the destination that is kept by the single commands of the plan and by
   the observable states of a file transfer holds in every state a kill can leave behind and at the end. *)
Section Generic.
Variable fl : flavour.
Variable ft : faults.
Variable S : fs.                       (* the source *)
Variable Inv : dstate -> Prop.
Variable okc : cmd -> Prop.            (* the single commands the plan may contain *)
Variable okf : path -> Z -> Prop.      (* the files the plan may transfer, with the time they are given *)
Hypothesis Inv_fs : forall st st', d_fs st' = d_fs st -> Inv st -> Inv st'.     (* the invariant is about the tree *)
Hypothesis Inv_cmd : forall st c, okc c -> is_chunk c = false -> Inv st -> Inv (fst (doer_exec fl st c)).
Hypothesis Inv_file : forall st p mt full m s, okf p mt -> fget S p = Some (NFile m full) -> Inv st ->
  safe p mt full (fget (d_fs st) p) (d_fs st) s -> Inv s.

(* the shape of what the boss sends: single commands, source reads, and per file the chunks of its bytes *)
Inductive gplan_ok : list bstep -> Prop :=
| pk_nil : gplan_ok []
| pk_cmd c rest : is_chunk c = false -> okc c -> gplan_ok rest -> gplan_ok (DestCmd c :: rest)
| pk_fetch q rest : gplan_ok rest -> gplan_ok (SrcFetch q :: rest)
| pk_file p mt chunks m rest :
    chunks <> [] -> fget S p = Some (NFile m (concat chunks)) -> okf p mt -> gplan_ok rest ->
    gplan_ok (chunk_cmds p mt chunks ++ rest).

Definition GJ (r : rstate) : Prop :=
  no_through (d_events (rs_d r)) -> Inv (rs_d r) /\ (d_open (rs_d r) = None \/ dead ft r).

Definition Goal_for (r : rstate) (steps : list bstep) : Prop :=
  (forall s, In s (steps_states fl ft r steps) -> no_through (d_events s) -> Inv s) /\ GJ (run_steps fl ft r steps).

Lemma vacuous_after r steps : ~ no_through (d_events (rs_d r)) -> Goal_for r steps.
Proof.
  intros Hn. split.
  - intros s Hin Hnt. exfalso. apply Hn. destruct (steps_states_events fl ft _ _ _ Hin) as (l & El).
    rewrite El in Hnt. eapply nt_prefix; exact Hnt.
  - intros Hnt. exfalso. apply Hn. destruct (run_steps_events fl ft steps r) as (l & El).
    rewrite El in Hnt. eapply nt_prefix; exact Hnt.
Qed.

Lemma dead_case r steps : Inv (rs_d r) -> dead ft r -> Goal_for r steps.
Proof.
  intros HG Hd. destruct (dead_frozen fl ft steps r Hd) as (F1 & F2 & F3). split.
  - intros s Hin _. rewrite (F1 s Hin). exact HG.
  - intros _. rewrite F2. split; [exact HG|right; exact F3].
Qed.

(* what is left to show: the run is alive, its log clean, no transfer open *)
Lemma Goal_alive r steps : GJ r ->
  (no_through (d_events (rs_d r)) -> Inv (rs_d r) -> d_open (rs_d r) = None -> Goal_for r steps) -> Goal_for r steps.
Proof.
  intros HJ H. destruct (nt_dec (d_events (rs_d r))) as [Hnt|Hnt]; [|apply vacuous_after; exact Hnt].
  destruct (HJ Hnt) as [HG [Ho|Hd]]; [apply H; assumption|apply dead_case; assumption].
Qed.

Lemma Goal_cons r s rest :
  (forall x, In x (step_states fl ft r s) -> no_through (d_events x) -> Inv x) ->
  (GJ (run_step fl ft r s) -> Goal_for (run_step fl ft r s) rest) -> GJ (run_step fl ft r s) ->
  Goal_for r (s :: rest).
Proof.
  intros H1 H2 HJ. destruct (H2 HJ) as [G1 G2]. split.
  - intros x Hin Hnt. cbn [steps_states] in Hin. apply in_app_or in Hin as [Hin|Hin]; [apply H1|apply G1]; assumption.
  - exact G2.
Qed.

Lemma Goal_app r a b :
  (forall x, In x (steps_states fl ft r a) -> no_through (d_events x) -> Inv x) ->
  (GJ (run_steps fl ft r a) -> Goal_for (run_steps fl ft r a) b) -> GJ (run_steps fl ft r a) ->
  Goal_for r (a ++ b).
Proof.
  intros H1 H2 HJ. destruct (H2 HJ) as [G1 G2]. split; [|rewrite run_steps_app; exact G2].
  intros x Hin Hnt. rewrite steps_states_app in Hin. apply in_app_or in Hin as [Hin|Hin]; [apply H1|apply G1]; assumption.
Qed.

Theorem gplan_safe steps : gplan_ok steps -> forall r, GJ r -> Goal_for r steps.
Proof.
  induction 1 as [|c rest Hc Hokc Hrest IH|q rest Hrest IH|p mt chunks m rest Hne HS Hokf Hrest IH]; intros r HJ.
  - split; [intros s []|exact HJ].
  - (* a single command that is not a chunk *)
    apply (Goal_alive r _ HJ). intros Hnt HG Ho.
    destruct (nonchunk_exec fl (rs_d r) c Hc) as [Hopen _].
    assert (HG1 : Inv (fst (doer_exec fl (rs_d r) c))) by (apply Inv_cmd; assumption).
    apply Goal_cons; [|apply IH|].
    + intros x Hin _. unfold step_states in Hin. destruct (executes ft r (DestCmd c)) as [c0|] eqn:E; [|destruct Hin].
      apply executes_some in E. inversion E; subst c0.
      destruct c; try discriminate Hc; destruct Hin as [<-|[]]; exact HG1.
    + intros _. rewrite run_step_d. destruct (executes ft r (DestCmd c)) as [c0|] eqn:E.
      * apply executes_some in E. inversion E; subst c0. split; [exact HG1|left; rewrite Hopen; exact Ho].
      * destruct (idle_same ft r (DestCmd c)) as (I1 & I2 & _).
        split; [apply (Inv_fs (rs_d r)); [exact I1|exact HG]|left; rewrite I2; exact Ho].
  - (* a read on the source *)
    apply (Goal_alive r _ HJ). intros Hnt HG Ho.
    apply Goal_cons; [|apply IH|].
    + intros x Hin _. unfold step_states in Hin. rewrite executes_fetch in Hin. destruct Hin.
    + intros _. rewrite run_step_d, executes_fetch, idle_fetch. split; [exact HG|left; exact Ho].
  - (* the chunks of a file *)
    apply (Goal_alive r _ HJ). intros Hnt HG Ho.
    destruct (blocked_at (rs_d r) p) eqn:Hb.
    { (* the file lies at or below a failed deletion: nothing moves during its block *)
      destruct (blocked_steps fl ft p (chunk_cmds p mt chunks) (chunk_cmds_shape p mt chunks) r Hb) as [K1 K2].
      apply Goal_app; [|apply IH|].
      - intros s Hin _. rewrite (K1 s Hin). exact HG.
      - intros _. rewrite K2. split; [exact HG|left; exact Ho]. }
    assert (Hph : phase p (fget (d_fs (rs_d r)) p) (d_fs (rs_d r)) [] (rs_d r)) by (apply ph_start; auto).
    destruct (file_block fl ft p mt (concat chunks) (d_fs (rs_d r)) chunks [] r Hne eq_refl Hph Hb) as [B1 B2].
    assert (Hsg : forall s, safe p mt (concat chunks) (fget (d_fs (rs_d r)) p) (d_fs (rs_d r)) s -> Inv s).
    { intros s. apply (Inv_file (rs_d r) p mt (concat chunks) m s); assumption. }
    apply Goal_app; [|apply IH|].
    + intros s Hin Hnts. apply Hsg, B1; assumption.
    + intros Hnt1. destruct (B2 Hnt1) as [Hs1 Hod]. split; [apply Hsg; exact Hs1|exact Hod].
Qed.

End Generic.

(* instance 1 (C08): no stamped damage *)
Section Main.
Variable fl : flavour.
Variable ft : faults.
Variable S : fs.       (* the source *)
Variable D0 : fs.      (* the destination before the run *)

(* C08's invariant: a file that carries a set time (as opposed to the time of its last write) is either
   the file that was there before the run, or holds exactly the complete bytes of the source file *)
Definition Good (s : dstate) : Prop :=
  forall q t d, fget (d_fs s) q = Some (NFile (TSet t) d) ->
    fget D0 q = Some (NFile (TSet t) d) \/ exists m, fget S q = Some (NFile m d).

Definition any_cmd (c : cmd) : Prop := True.
Definition any_file (p : path) (mt : Z) : Prop := True.
Definition plan_ok : list bstep -> Prop := gplan_ok S any_cmd any_file.
Definition J : rstate -> Prop := GJ ft Good.

Lemma safe_good p mt full f0 m s :
  (forall q t d, fget f0 q = Some (NFile (TSet t) d) ->
     fget D0 q = Some (NFile (TSet t) d) \/ exists m, fget S q = Some (NFile m d)) ->
  fget S p = Some (NFile m full) -> safe p mt full (fget f0 p) f0 s -> Good s.
Proof.
  intros HG HS [Hfr Hp] q t d Hq. destruct (path_eq_dec q p) as [->|Hne].
  - destruct Hp as [Hp|[(k & dd & Hp)|Hp]].
    + apply HG. rewrite <- Hp. exact Hq.
    + rewrite Hp in Hq. discriminate.
    + rewrite Hp in Hq. inversion Hq; subst. right. exists m. exact HS.
  - apply HG. rewrite <- (Hfr q Hne). exact Hq.
Qed.

Theorem plan_safe steps : plan_ok steps -> forall r, J r ->
  (forall s, In s (steps_states fl ft r steps) -> no_through (d_events s) -> Good s) /\ J (run_steps fl ft r steps).
Proof.
  intros Hp r HJ. apply (gplan_safe fl ft S Good any_cmd any_file); [| | |exact Hp|exact HJ].
  - intros st st' E HG q t d Hq. apply HG. rewrite <- E. exact Hq.
  - intros st c _ Hc HG q t d Hq. apply HG. apply (nonchunk_exec fl st c Hc). exact Hq.
  - intros st p mt full m s _ HS HG Hs. eapply safe_good; eauto.
Qed.

End Main.
