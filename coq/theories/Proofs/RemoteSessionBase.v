(* Remote session model: termination (every step decreases mu), soundness of the executable runs. *)
From RJ Require Import Base.Prelude Model.RemoteSession.
From RJ Require Export Proofs.RemoteSessionStep.

Local Open Scope nat_scope.

Lemma lw_app k l1 l2 : lw k (l1 ++ l2) = lw k l1 + lw k l2.
Proof. induction l1 as [|x l IH]; cbn [lw app]; [reflexivity | rewrite IH; lia]. Qed.

Lemma fw_app l1 l2 : fw (l1 ++ l2) = fw l1 + fw l2.
Proof. induction l1 as [|x l IH]; cbn [fw app]; [reflexivity | rewrite IH; lia]. Qed.

Lemma lw_map_resp k rs : lw k (map MResp rs) = k * length rs.
Proof. induction rs as [|r t IH]; cbn [lw map length mw]; [lia | rewrite IH; lia]. Qed.

(* a message weighs less at every station further down the pipeline *)
Lemma snd_spec_mu c e w br bad e' w' bad' : snd_spec c e w br bad e' w' bad' -> epw e' + fw w' < epw e + fw w.
Proof.
  intros [m t T Q | T Q X | m T B | m T B S]; unfold epw; projs; rewrite T.
  - rewrite Q. cbn [sthw lw]. lia.
  - cbn [sthw]. lia.
  - cbn [sthw]. lia.
  - rewrite fw_app. cbn [sthw fw fpay wframe]. destruct bad; cbn [mw]; lia.
Qed.

Lemma rcv_spec_mu c e w eof e' w' : rcv_spec c e w eof e' w' -> epw e' + fw w' < epw e + fw w.
Proof.
  intros [f t T W G N | f t T W G | T W E | m T C X F | m T C X F | m T X]; unfold epw; projs; rewrite T;
    try rewrite W; try rewrite lw_app; cbn [rthw fw lw]; lia.
Qed.

(* what an operation of a main thread adds to and takes from the weight of the endpoint *)
Definition op_gain (o : eop) : nat := match o with ESend m => 6 + mw m | _ => 0 end.
Definition op_loss (o : eop) : nat := match o with ERecv m => 2 + mw m | _ => 0 end.

Lemma ep_do_mu c e o : ep_can c e o -> epw (ep_do e o) + op_loss o = epw e + op_gain o.
Proof.
  destruct o; intros C; unfold epw; cbn [ep_do op_gain op_loss]; projs; try lia.
  - rewrite lw_app. cbn [lw]. lia.
  - destruct C as [t ->]. cbn [tl lw]. lia.
Qed.

Lemma boss_move_mu s p o b' v' : boss_move s p o b' v' -> pc (bm s) = p ->
  bpcw (pc b') + opsw (bops b') + op_gain o + envw v' < bpcw p + opsw (bops (bm s)) + op_loss o + envw (ev s).
Proof.
  intros [] P; projs; rewrite ?P, ?H; unfold envw; projs; cbn [bpcw opsw opw op_gain op_loss mw]; lia.
Qed.

Lemma doer_move_mu s p o d' : doer_move s p o d' -> dp (dm s) = p ->
  dpcw (dp d') + lw 7 (dpend d') + op_gain o < dpcw p + lw 7 (dpend (dm s)) + op_loss o.
Proof.
  intros [] P; projs; rewrite ?P, ?H; cbn [dpcw lw op_gain op_loss mw]; try lia.
  destruct (plan_hd (eplan (dm s))); [cbn [lw mw] | rewrite lw_map_resp]; lia.
Qed.

Theorem step_decreases c a s s' : next c a s = Some s' -> mu s' < mu s.
Proof.
  intros H. next_cases H;
    unfold mu; projs.
  - pose proof (boss_move_mu _ _ _ _ _ M P). pose proof (ep_do_mu _ _ _ C). subst p. lia.
  - pose proof (doer_move_mu _ _ _ _ M P). pose proof (ep_do_mu _ _ _ C). subst p. lia.
  - rewrite P, fw_app. unfold epw, envw. projs. cbn [dpcw fw]. destruct (bad_d2b (ev s)); cbn [fpay wframe mw]; lia.
  - apply snd_spec_mu in E. unfold envw. projs. lia.
  - apply rcv_spec_mu in E. lia.
  - apply snd_spec_mu in E. unfold envw. projs. lia.
  - apply rcv_spec_mu in E. lia.
  - enough (envw v' < envw (ev s)) by lia.
    destruct E as [code A P | A O | F C | F A | F O | d n F B]; unfold envw; projs; rewrite ?A, ?F; cbn [b2n pred]; lia.
Qed.

Theorem terminates c s : Acc (fun a b => step c b a) s.
Proof. apply (well_founded_lt_compat _ mu). intros a b [x H]. eapply step_decreases; exact H. Qed.

Lemma run_sched_reach c x l : forall s, reach c x s -> reach c x (run_sched c s l).
Proof.
  induction l as [|a r IH]; intros s Hs; cbn [run_sched]; [exact Hs|].
  destruct (next c a s) as [s'|] eqn:E; [|now apply IH].
  apply IH. eapply reach_step; [exact Hs | exists a; exact E].
Qed.

Lemma first_enabled_step c s ord s' : first_enabled c s ord = Some s' -> step c s s'.
Proof.
  induction ord as [|a r IH]; cbn [first_enabled]; [discriminate|].
  destruct (next c a s) as [t|] eqn:E; [|exact IH].
  intros H; injection H as <-. now exists a.
Qed.

Lemma first_enabled_none c s ord : first_enabled c s ord = None -> forall a, In a ord -> next c a s = None.
Proof.
  induction ord as [|b r IH]; cbn [first_enabled]; [intros _ a []|].
  destruct (next c b s) as [t|] eqn:E; [discriminate|].
  intros H a [<-|Hin]; [exact E | now apply IH].
Qed.

Lemma run_prio_reach c x ord n : forall s, reach c x s -> reach c x (run_prio c n ord s).
Proof.
  induction n as [|n IH]; intros s Hs; cbn [run_prio]; [exact Hs|].
  destruct (first_enabled c s ord) as [s'|] eqn:E; [|exact Hs].
  apply IH. eapply reach_step; [exact Hs | eapply first_enabled_step; exact E].
Qed.

Lemma run_prio_quiescent c ord n : forall s, mu s < n ->
  forall a, In a ord -> next c a (run_prio c n ord s) = None.
Proof.
  induction n as [|n IH]; intros s Hlt; [lia|]. cbn [run_prio].
  destruct (first_enabled c s ord) as [s'|] eqn:E.
  - apply IH. destruct (first_enabled_step _ _ _ _ E) as [a Ha]. apply step_decreases in Ha. lia.
  - now apply first_enabled_none.
Qed.

Lemma run_plan_reach c x ord n : forall pl k s, reach c x s -> reach c x (run_plan c n ord pl k s).
Proof.
  induction n as [|n IH]; intros pl k s Hs; cbn [run_plan]; [exact Hs|].
  destruct pl as [|[t a] rest].
  - destruct (first_enabled c s ord) as [s'|] eqn:E; [|exact Hs].
    apply IH. eapply reach_step; [exact Hs | eapply first_enabled_step; exact E].
  - destruct (trig_ok t s k).
    + destruct (next c a s) as [s'|] eqn:E; [|now apply IH].
      apply IH. eapply reach_step; [exact Hs | exists a; exact E].
    + destruct (first_enabled c s ord) as [s'|] eqn:E; [|exact Hs].
      apply IH. eapply reach_step; [exact Hs | eapply first_enabled_step; exact E].
Qed.

Theorem run_sound c x ord : reach c x (run_to_end c ord (init x)) /\
  forall a, In a ord -> next c a (run_to_end c ord (init x)) = None.
Proof. split; [apply run_prio_reach; constructor | apply run_prio_quiescent; lia]. Qed.

Theorem run_plan_sound c x ord pl : reach c x (run_plan_to_end c ord pl (init x)).
Proof. apply run_plan_reach; constructor. Qed.

Lemma stuck_sound c s : stuck c s = true -> final s = false /\ forall s', ~ step c s s'.
Proof.
  unfold stuck. intros H. apply andb_true_iff in H as [H1 H2]. split; [now destruct (final s)|].
  intros s' [a Ha]. rewrite forallb_forall in H2.
  assert (Hin : In a all_actions) by (destruct a as [| | | | | | | | | | []]; cbn; auto 14).
  specialize (H2 a Hin). rewrite Ha in H2. discriminate.
Qed.

Lemma stuck_complete c s : stuck c s = false -> final s = true \/ exists s', step c s s'.
Proof.
  unfold stuck. destruct (final s); [now left|]. cbn [negb andb]. intros H. right.
  induction all_actions as [|a l IH]; [discriminate H|]. cbn [forallb] in H.
  destruct (next c a s) as [s'|] eqn:N; [exists s'; now exists a | apply IH; exact H].
Qed.
