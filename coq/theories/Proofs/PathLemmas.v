(* Prefixes and visibility, characterised by first-k components. *)
From RJ Require Import Base.Prelude Base.OrderedPlan Model.Settings Model.Core Model.Fs.

Lemma is_prefix_firstn q p : is_prefix q p = true <-> q = firstn (length q) p.
Proof.
  revert p; induction q as [|x q IH]; intros p; cbn [is_prefix length firstn]; [tauto|].
  destruct p as [|y p]; [split; discriminate|].
  destruct (str_eq_dec x y) as [->|Hne].
  - rewrite IH. split; [intros <-; reflexivity | intros H; inversion H; congruence].
  - split; [discriminate|]. intros H. inversion H. contradiction.
Qed.

Lemma is_prefix_refl a : is_prefix a a = true.
Proof. apply is_prefix_firstn. symmetry. apply firstn_all. Qed.

Lemma is_prefix_firstn_k k p : is_prefix (firstn k p) p = true.
Proof.
  revert p; induction k as [|k IH]; intros [|y p]; cbn [firstn is_prefix]; try reflexivity.
  destruct (str_eq_dec y y); [apply IH|congruence].
Qed.

Lemma strict_prefix_iff q p : is_strict_prefix q p = true <-> exists k, k < length p /\ q = firstn k p.
Proof.
  unfold is_strict_prefix, path_eqb. split.
  - intros H. apply andb_true_iff in H as [H1 H2]. apply is_prefix_firstn in H1.
    exists (length q). split; [|exact H1].
    destruct (path_eq_dec q p) as [->|Hne]; [discriminate|].
    destruct (Nat.lt_ge_cases (length q) (length p)) as [Hlt|Hge]; [exact Hlt|].
    exfalso. apply Hne. rewrite H1. apply firstn_all2. exact Hge.
  - intros (k & Hk & ->). rewrite is_prefix_firstn_k. cbn [andb].
    destruct (path_eq_dec (firstn k p) p) as [Heq|]; [|reflexivity].
    exfalso. apply (f_equal (@length _)) in Heq. rewrite firstn_length in Heq. lia.
Qed.

Section Vis.
Variable incl : path -> bool.

(* visible_above f pre rest checks pre ++ firstn k rest for 1 <= k < |rest| *)
Lemma visible_above_iff f : forall rest pre,
  visible_above incl f pre rest = true <->
  forall k, 1 <= k -> k < length rest ->
    incl (pre ++ firstn k rest) = true /\ fget f (pre ++ firstn k rest) = Some NFolder.
Proof.
  induction rest as [|c rest IH]; intros pre.
  - cbn. split; [intros _ k H1 H2; lia | reflexivity].
  - destruct rest as [|c1 rest].
    + cbn. split; [intros _ k H1 H2; lia | reflexivity].
    + change (visible_above incl f pre (c :: c1 :: rest)) with
        (incl (pre ++ [c]) && match fget f (pre ++ [c]) with Some NFolder => visible_above incl f (pre ++ [c]) (c1 :: rest) | _ => false end).
      split.
      * intros H. apply andb_true_iff in H as [Hi H].
        destruct (fget f (pre ++ [c])) as [[| |]|] eqn:E; try discriminate.
        pose proof (proj1 (IH (pre ++ [c])) H) as H'. clear H. rename H' into H. intros k H1 H2.
        destruct k as [|[|k]]; [lia| |].
        -- cbn [firstn]. split; [exact Hi|exact E].
        -- cbn [length] in H2. specialize (H (S k) ltac:(lia) ltac:(cbn [length]; lia)).
           change (firstn (S (S k)) (c :: c1 :: rest)) with (c :: firstn (S k) (c1 :: rest)).
           replace (pre ++ c :: firstn (S k) (c1 :: rest)) with ((pre ++ [c]) ++ firstn (S k) (c1 :: rest)) by (rewrite <- app_assoc; reflexivity).
           exact H.
      * intros H. destruct (H 1 ltac:(lia) ltac:(cbn [length]; lia)) as [Hi E]. cbn [firstn] in Hi, E.
        rewrite Hi, E. cbn [andb]. apply IH. intros k H1 H2.
        specialize (H (S k) ltac:(lia) ltac:(cbn [length] in *; lia)).
        change (firstn (S k) (c :: c1 :: rest)) with (c :: firstn k (c1 :: rest)) in H.
        replace (pre ++ c :: firstn k (c1 :: rest)) with ((pre ++ [c]) ++ firstn k (c1 :: rest)) in H by (rewrite <- app_assoc; reflexivity).
        exact H.
Qed.

Lemma visible_iff f p :
  visible incl f p = true <->
  p <> [] /\ incl p = true /\
  forall q, q <> [] -> is_strict_prefix q p = true -> incl q = true /\ fget f q = Some NFolder.
Proof.
  unfold visible. destruct p as [|c p]; [split; [discriminate|intros [H _]; congruence]|].
  rewrite andb_true_iff, visible_above_iff. cbn [app]. split.
  - intros [Hi H]. split; [discriminate|]. split; [exact Hi|].
    intros q Hq Hs. apply strict_prefix_iff in Hs as (k & Hk & ->).
    destruct k; [cbn in Hq; congruence|]. apply H; lia.
  - intros (_ & Hi & H). split; [exact Hi|]. intros k H1 H2. apply H.
    + destruct k; [lia|]. cbn. discriminate.
    + apply strict_prefix_iff. exists k. auto.
Qed.
End Vis.

Lemma strict_prefix_trans a b c : is_strict_prefix a b = true -> is_strict_prefix b c = true -> is_strict_prefix a c = true.
Proof.
  intros H1 H2. apply strict_prefix_iff in H1 as (k1 & L1 & ->). apply strict_prefix_iff in H2 as (k2 & L2 & ->).
  apply strict_prefix_iff. rewrite firstn_length in L1. exists k1. split; [lia|].
  rewrite firstn_firstn. f_equal. lia.
Qed.

Lemma nil_strict_prefix p : p <> [] -> is_strict_prefix [] p = true.
Proof. intros H. apply strict_prefix_iff. exists 0. split; [destruct p; [congruence|cbn; lia]|reflexivity]. Qed.
