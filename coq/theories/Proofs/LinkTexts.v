(* Every link text on the destination stays well-formed UTF-8: a link the run writes carries the text the doer
   derives from a source link (Proofs/Utf8Join.written_text_valid), everything else is as it was.  With this the
   destination of a sync is fit to be the source of the next one (spec files, chains A -> B, B -> C). *)
From RJ Require Import Base.Prelude Base.OrderedPlan Model.Settings Model.Core Model.Fs Model.Paths Model.Sync Model.SyncTop
  Spec.PlanSpec Spec.Mirror Proofs.PlanCProofs Proofs.FsProofs Proofs.PathLemmas Proofs.ExecProofs
  Proofs.ConfirmProofs Proofs.SyncProofs Proofs.MirrorProofs Proofs.InstanceProofs
  Proofs.CrashProofs Proofs.CrashMain Proofs.TouchedProofs Proofs.ConfineAll Proofs.ConsentAll Proofs.RepairMain Proofs.KillEvents
  Proofs.PathsProofs Proofs.Utf8Join.

Section PlanLinks.
Variable now_z : N -> Z.
Variable incl : path -> bool.
Variable normalize : str -> target.
Variable chunker : str -> list str.
Notation entry_of := (entry_of now_z normalize).
Notation valid_listing := (valid_listing now_z incl normalize).
Notation side_listing := (side_listing now_z normalize).
Notation sync_plan := (sync_plan now_z normalize chunker).

(* a CreateSymlink of the step list carries the normalised text of the source link of that path *)
Lemma plan_symlink_source cfg S D ans bits ls ld q k t :
  valid_listing S ls -> valid_listing (d_fs D) ld ->
  cmd_of_plan (snd (sync_plan cfg S D ans bits ls ld)) (CCreateSymlink q k t) ->
  exists text, fget S q = Some (NLink text k) /\ t = normalize text.
Proof.
  intros HvS HvD.
  destruct (sync_one_plan now_z normalize chunker cfg S D ans bits ls ld no_faults) as [Hs|sn skip np Hs Hg|sn ans1 np1 steps r Hs Hg Hp];
    intros Hc; try destruct Hc.
  (* the command is not CreateRootAncestors, so the execution phase was reached and the command is one of its steps *)
  assert (Hin : In (DestCmd (CCreateSymlink q k t)) steps).
  { apply in_app_or in Hc as [Hc|Hc]; [exfalso|exact Hc].
    destruct (start_steps_shape (cf_dry cfg) (option_map entry_of (fget (d_fs D) []))) as [E|E]; rewrite E in Hc;
      [destruct Hc|destruct Hc as [Hc|[]]; discriminate]. }
  destruct Hp as [Ha|acts Ha Hc0|acts acts' sk b2 a2 np Ha Hc0 Hd|acts acts' sk b2 a2 np Ha Hc0 Hd]; try destruct Hin.
  (* the plan is plan_spec of the two listings, whatever the interleaving, and its copies are source entries *)
  rewrite (arrivals_spec now_z incl normalize _ _ S (d_fs D) sn bits ls ld HvS HvD Hs) in Ha. inversion Ha; subst acts.
  apply (exec_steps_creates chunker S) in Hin as (r0 & Hin). apply (confirmed_copy_in _ _ _ _ _ _ _ _ Hc0) in Hin.
  apply in_copy_iff in Hin as [HinLs _]. apply (side_lists now_z incl normalize S ls HvS) in HinLs as (_ & n & En & He).
  destruct n as [m d| |text k']; cbn in He; try discriminate. inversion He; subst. exists text. split; [exact En|reflexivity].
Qed.
End PlanLinks.

(* For the executable sync and EVERY outcome: whatever state a run ends in - or a kill leaves behind - every link
   text on the destination is well-formed UTF-8 if those of the source and of the old destination were. *)
Theorem run_top_keeps_links_utf8 cfg S D a ans bits ex ft :
  unique_keys S -> wf_fs S -> unique_keys D -> wf_fs D -> links_utf8 S -> links_utf8 D -> cf_fl cfg = Unix ->
  let ls := list_fs now_far (excl_incl ex) normalize_unix S in
  let ld := list_fs now_far (excl_incl ex) normalize_unix D in
  (forall s, In s (sync_kill_states now_far normalize_unix chunk_real cfg S (world D a []) ans bits ls ld ft) -> links_utf8 (d_fs s)) /\
  links_utf8 (d_fs (r_dest (run_top cfg S D a ans bits ex ft))).
Proof.
  intros HuS HwS HuD HwD HlS HlD Hfl ls ld.
  destruct (kill_states_touched_unconditional cfg S D a ans bits ex ft HuS HwS HuD HwD) as [T1 T2].
  fold ls ld in T1, T2.
  assert (Hgen : forall s, Touched (cf_fl cfg) S D
                   (cmd_of_plan (snd (sync_plan now_far normalize_unix chunk_real cfg S (world D a []) ans bits ls ld)))
                   (file_of_plan (snd (sync_plan now_far normalize_unix chunk_real cfg S (world D a []) ans bits ls ld))) s ->
                 links_utf8 (d_fs s)).
  { intros s HT q text k Hq.
    destruct (HT q) as [H|[(Hn & _)|[(Hn & _)|[(k1 & t1 & Hn & Hc)|[(k1 & d & mt & Hn & _)|(mt & fu & m & Hn & _)]]]]]; try congruence.
    - rewrite H in Hq. exact (HlD q text k Hq).
    - rewrite Hn in Hq. inversion Hq; subst text k1.
      destruct (plan_symlink_source now_far (excl_incl ex) normalize_unix chunk_real cfg S (world D a []) ans bits ls ld q k t1
                  (list_fs_valid now_far (excl_incl ex) normalize_unix S HuS HwS)
                  (list_fs_valid now_far (excl_incl ex) normalize_unix D HuD HwD) Hc) as (text0 & HS & ->).
      rewrite Hfl. apply written_text_valid. exact (HlS q text0 k HS). }
  split; [intros s Hin; apply Hgen; apply T1; exact Hin|apply Hgen; exact T2].
Qed.
