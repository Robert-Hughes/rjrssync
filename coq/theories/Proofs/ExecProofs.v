(* Effect of successfully executed destination commands, path by path (the lemma C01, C04, C07 share). *)
From RJ Require Import Base.Prelude Base.OrderedPlan Model.Settings Model.Core Model.Fs Model.Sync
  Spec.PlanSpec Proofs.FsProofs Proofs.SyncProofs Proofs.DryProofs.

Definition is_through (e : event) : bool := match e with Through _ => true | CreatedAncestors => false end.
Definition no_through (l : list event) : Prop := forallb (fun e => negb (is_through e)) l = true.

Lemma no_through_app l1 l2 : no_through (l1 ++ l2) <-> no_through l1 /\ no_through l2.
Proof. unfold no_through. rewrite forallb_app, andb_true_iff. reflexivity. Qed.

Fixpoint exec_all (fl : flavour) (st : dstate) (cmds : list cmd) : dstate :=
  match cmds with [] => st | c :: r => exec_all fl (fst (doer_exec fl st c)) r end.
Fixpoint all_ok (fl : flavour) (st : dstate) (cmds : list cmd) : Prop :=
  match cmds with [] => True | c :: r => snd (doer_exec fl st c) = None /\ all_ok fl (fst (doer_exec fl st c)) r end.

Lemma exec_all_app fl cmds1 : forall st cmds2, exec_all fl st (cmds1 ++ cmds2) = exec_all fl (exec_all fl st cmds1) cmds2.
Proof. induction cmds1 as [|c r IH]; intros; cbn [exec_all app]; auto. Qed.
Lemma all_ok_app fl cmds1 : forall st cmds2, all_ok fl st (cmds1 ++ cmds2) <-> all_ok fl st cmds1 /\ all_ok fl (exec_all fl st cmds1) cmds2.
Proof.
  induction cmds1 as [|c r IH]; intros; cbn [all_ok exec_all app]; [tauto|]. rewrite IH. tauto.
Qed.

Lemma ev_le_no_through a b : ev_le a b -> no_through (d_events b) -> no_through (d_events a).
Proof. intros (l & E) H. rewrite E in H. apply no_through_app in H. tauto. Qed.
Lemma through_logged l q : ~ no_through (l ++ [Through q]).
Proof. intros H. apply no_through_app in H as [_ H]. discriminate H. Qed.

Lemma exec_all_events fl cmds : forall st, ev_le st (exec_all fl st cmds).
Proof.
  induction cmds as [|c r IH]; intros st; cbn [exec_all]; [apply ev_le_refl|].
  eapply ev_le_trans; [apply doer_exec_events|apply IH].
Qed.
Lemma no_through_prefix fl st cmds : no_through (d_events (exec_all fl st cmds)) -> no_through (d_events st).
Proof. apply ev_le_no_through, exec_all_events. Qed.
Lemma no_through_step fl st c r : no_through (d_events (exec_all fl st (c :: r))) -> no_through (d_events (fst (doer_exec fl st c))).
Proof. cbn [exec_all]. apply no_through_prefix. Qed.

Lemma exec_all_frame fl cmds : forall st p,
  (forall c, In c cmds -> cmd_path c <> Some p) -> fget (d_fs (exec_all fl st cmds)) p = fget (d_fs st) p.
Proof.
  induction cmds as [|c r IH]; intros st p H; cbn [exec_all]; [reflexivity|].
  rewrite IH by (intros; apply H; right; auto).
  destruct (doer_exec fl st c) as [st' e] eqn:E. cbn [fst]. eapply doer_exec_frame; eauto. apply H. left; reflexivity.
Qed.

(* a command that succeeds without going through a link has the intended effect *)
Lemma nc_effect fl st c :
  is_chunk c = false -> snd (doer_exec fl st c) = None -> no_through (d_events (fst (doer_exec fl st c))) ->
  d_open (fst (doer_exec fl st c)) = d_open st /\
  (forall p, deletes c p -> fget (d_fs (fst (doer_exec fl st c))) p = None) /\
  (forall p n, creates fl c p n -> fget (d_fs (fst (doer_exec fl st c))) p = Some n).
Proof.
  intros Hc Hok Hnt.
  destruct (doer_exec_nc fl st c Hc) as [Hq|Hq| | |p q _ _|p n Hn|p Hd]; try discriminate Hok;
    (split; [reflexivity|]); dsimpl.
  - (* nothing was done: c is neither a deletion nor a creation *)
    split; [intros p' H'|intros p' n' H']; destruct H'; destruct Hq; discriminate.
  - split; [intros p' H'|intros p' n' H']; destruct H'; discriminate Hq.
  - destruct (through_logged _ _ Hnt).
  - split; [intros p' H'; destruct H'; inversion Hn|]. intros p' n' H'. destruct H'; inversion Hn; subst; apply fget_fset_eq.
  - split; [|intros p' n' H'; destruct H'; inversion Hd]. intros p' H'. destruct H'; inversion Hd; subst; apply fget_fdel_eq.
Qed.

Fixpoint chunk_cmd_list (p : path) (mt : Z) (chunks : list str) : list cmd :=
  match chunks with
  | [] => []
  | [c] => [CCreateOrUpdateFile p c (Some mt) false]
  | c :: r => CCreateOrUpdateFile p c None true :: chunk_cmd_list p mt r
  end.
Lemma dest_cmds_chunk_cmds p mt chunks : dest_cmds (chunk_cmds p mt chunks) = chunk_cmd_list p mt chunks.
Proof.
  induction chunks as [|c r IH]; [reflexivity|]. destruct r as [|c2 r]; [reflexivity|].
  change (chunk_cmds p mt (c :: c2 :: r)) with (DestCmd (CCreateOrUpdateFile p c None true) :: chunk_cmds p mt (c2 :: r)).
  change (chunk_cmd_list p mt (c :: c2 :: r)) with (CCreateOrUpdateFile p c None true :: chunk_cmd_list p mt (c2 :: r)).
  unfold dest_cmds in *. cbn [flat_map app]. rewrite IH. reflexivity.
Qed.

Definition final_stamp (mt : option Z) (k : N) : stamp := match mt with Some t => TSet t | None => TNow k end.

Lemma file_data_set f p m d : file_data (fset f p (NFile m d)) p = d.
Proof. unfold file_data. rewrite fget_fset_eq. reflexivity. Qed.

(* no file is open, or p is and holds a file *)
Definition open_at (st : dstate) (p : path) : Prop :=
  d_open st = None \/ (d_open st = Some p /\ exists m old, fget (d_fs st) p = Some (NFile m old)).

(* after an error-free, through-free chunk command the file holds exactly what was there (continuation)
   or nothing (fresh open) followed by the chunk *)
Lemma chunk_effect fl st p data mt more :
  let c := CCreateOrUpdateFile p data mt more in
  snd (doer_exec fl st c) = None -> no_through (d_events (fst (doer_exec fl st c))) ->
  open_at st p ->
  let old := match d_open st with Some _ => file_data (d_fs st) p | None => [] end in
  (exists k, fget (d_fs (fst (doer_exec fl st c))) p = Some (NFile (final_stamp mt k) (old ++ data))) /\
  d_open (fst (doer_exec fl st c)) = (if more then Some p else None).
Proof.
  intros c Hok Hnt Hopen old. subst c old.
  destruct (blocked_at st p) eqn:Hb; [cbn [doer_exec] in Hok; rewrite Hb in Hok; discriminate|].
  destruct (refuses st p) eqn:Hr; [cbn [doer_exec] in Hok; rewrite Hb, Hr in Hok; discriminate|].
  rewrite chunk_exec in * by assumption.
  destruct (open_for_write _ p) as [st1|st1|e] eqn:Eo; [| |discriminate].
  - (* the file is open inside the tree *)
    assert (Hd : file_data (d_fs st1) p = match d_open st with Some _ => file_data (d_fs st) p | None => [] end).
    { apply open_file in Eo as [(Ho & _ & ->)|(Ho & _ & _ & ->)]; dsimpl; rewrite Ho; [reflexivity|apply file_data_set]. }
    unfold chunk_end in *. destruct (write_fails st1); [discriminate|]. cbn [fst snd]. split.
    + destruct mt as [t|]; unfold stamp_file, write_chunk; dsimpl; rewrite ?fget_fset_eq, ?file_data_set;
        cbn [d_fs count_write]; rewrite Hd; [exists 0%N | exists (d_tick st1)]; reflexivity.
    + destruct mt; unfold stamp_file, write_chunk; dsimpl; reflexivity.
  - (* the open went outside the tree: either a Through event was logged now, or the handle was already outside *)
    exfalso. apply open_outside in Eo as [(Ho & Hf & _)|(_ & q & -> & _)]; dsimpl.
    + destruct Hopen as [Hopen|(_ & m & old & Hopen)]; [congruence|]. exact (Hf m old Hopen).
    + exact (through_logged _ _ Hnt).
Qed.

Lemma chunks_effect fl p mt : forall chunks st,
  chunks <> [] ->
  all_ok fl st (chunk_cmd_list p mt chunks) ->
  no_through (d_events (exec_all fl st (chunk_cmd_list p mt chunks))) ->
  open_at st p ->
  let old := match d_open st with Some _ => file_data (d_fs st) p | None => [] end in
  fget (d_fs (exec_all fl st (chunk_cmd_list p mt chunks))) p = Some (NFile (TSet mt) (old ++ concat chunks)) /\
  d_open (exec_all fl st (chunk_cmd_list p mt chunks)) = None.
Proof.
  induction chunks as [|c r IH]; intros st Hne Hok Hnt Hopen; [congruence|].
  destruct r as [|c2 r].
  - (* last chunk *)
    cbn [chunk_cmd_list all_ok exec_all concat] in *. destruct Hok as [Hok _].
    destruct (chunk_effect fl st p c (Some mt) false Hok Hnt Hopen) as [(k & E) Ho].
    rewrite app_nil_r. split; [exact E|exact Ho].
  - change (chunk_cmd_list p mt (c :: c2 :: r)) with (CCreateOrUpdateFile p c None true :: chunk_cmd_list p mt (c2 :: r)) in *.
    cbn [all_ok exec_all] in *. destruct Hok as [Hok1 Hok2].
    set (st1 := fst (doer_exec fl st (CCreateOrUpdateFile p c None true))) in *.
    assert (Hn1 : no_through (d_events st1)) by (eapply no_through_prefix; eauto).
    destruct (chunk_effect fl st p c None true Hok1 Hn1 Hopen) as [(k & E) Ho]. fold st1 in E, Ho.
    assert (Hopen1 : open_at st1 p).
    { right. split; [exact Ho|]. eexists; eexists; exact E. }
    destruct (IH st1 ltac:(discriminate) Hok2 Hnt Hopen1) as [F1 F2].
    split; [|exact F2]. rewrite F1, Ho. unfold file_data. rewrite E. cbn [concat]. rewrite <- app_assoc. reflexivity.
Qed.

Lemma delete_cmd_deletes e : deletes (delete_cmd e) (fst e).
Proof. destruct e as [p [[mt sz| |k t] r]]; constructor. Qed.
Lemma cmd_path_delete e : cmd_path (delete_cmd e) = Some (fst e).
Proof. apply deletes_path, delete_cmd_deletes. Qed.
Lemma delete_cmd_chunk e : is_chunk (delete_cmd e) = false.
Proof. apply (deletes_path _ (fst e)), delete_cmd_deletes. Qed.

Lemma delete_cmd_shape e :
  delete_cmd e = CDeleteFile (fst e) \/ delete_cmd e = CDeleteFolder (fst e) \/ exists k, delete_cmd e = CDeleteSymlink (fst e) k.
Proof. destruct (delete_cmd_deletes e); eauto. Qed.

Lemma deletes_effect fl : forall (dl : list (path * (entry * dreason))) st,
  NoDup (map fst dl) ->
  all_ok fl st (map delete_cmd dl) ->
  no_through (d_events (exec_all fl st (map delete_cmd dl))) ->
  (forall p, In p (map fst dl) -> fget (d_fs (exec_all fl st (map delete_cmd dl))) p = None) /\
  (forall p, ~ In p (map fst dl) -> fget (d_fs (exec_all fl st (map delete_cmd dl))) p = fget (d_fs st) p) /\
  d_open (exec_all fl st (map delete_cmd dl)) = d_open st.
Proof.
  induction dl as [|e dl IH]; intros st Hnd Hok Hnt; cbn [map all_ok exec_all] in *.
  - repeat split; auto. intros p [].
  - inversion Hnd as [|? ? Hnin Hnd']; subst. destruct Hok as [Hok1 Hok2].
    set (st1 := fst (doer_exec fl st (delete_cmd e))) in *.
    assert (Hn1 : no_through (d_events st1)) by (eapply no_through_prefix; eauto).
    destruct (nc_effect fl st (delete_cmd e) (delete_cmd_chunk e) Hok1 Hn1) as (O1 & E1 & _). fold st1 in E1, O1.
    specialize (E1 _ (delete_cmd_deletes e)).
    destruct (IH st1 Hnd' Hok2 Hnt) as (I1 & I2 & I3).
    repeat split.
    + intros p [<-|Hp]; [rewrite I2 by assumption; exact E1 | apply I1; assumption].
    + intros p Hp. rewrite I2 by (intro; apply Hp; right; assumption).
      destruct (doer_exec fl st (delete_cmd e)) as [st1' er] eqn:Ed. subst st1. cbn [fst].
      eapply doer_exec_frame; eauto. rewrite cmd_path_delete. intro Heq. inversion Heq. apply Hp. left. assumption.
    + rewrite I3. exact O1.
Qed.

Section Copies.
Variable chunker : str -> list str.
Hypothesis chunker_ok : forall d, chunker d <> [] /\ concat (chunker d) = d.

Definition planned_node (fl : flavour) (S : fs) (p : path) (e : entry) : node :=
  match e with
  | EFolder => NFolder
  | ESymlink k t => NLink (denormalize fl t) k
  | EFile mt _ => NFile (TSet mt) (file_data S p)
  end.

(* the listed details of a file entry agree with a file in the source tree *)
Definition file_listed (S : fs) (p : path) (e : entry) : Prop :=
  match e with EFile _ _ => exists m d, fget S p = Some (NFile m d) | _ => True end.

Lemma dest_cmds_app a b : dest_cmds (a ++ b) = dest_cmds a ++ dest_cmds b.
Proof. unfold dest_cmds. apply flat_map_app. Qed.

Lemma copy_cmds_paths S p e r c :
  In c (dest_cmds (copy_steps chunker S (p, (e, r)))) -> cmd_path c = Some p.
Proof.
  destruct e as [mt sz| |k t]; cbn [copy_steps].
  - destruct (fget S p) as [[m d| |]|]; cbn [dest_cmds flat_map app]; try (intros []).
    fold (dest_cmds (chunk_cmds p mt (chunker d))). rewrite dest_cmds_chunk_cmds.
    generalize (chunker d). intros chunks. induction chunks as [|c0 rr IH]; [intros []|].
    destruct rr as [|c1 rr]; [intros [<-|[]]; reflexivity|].
    change (chunk_cmd_list p mt (c0 :: c1 :: rr)) with (CCreateOrUpdateFile p c0 None true :: chunk_cmd_list p mt (c1 :: rr)).
    intros [<-|H]; [reflexivity|auto].
  - intros [<-|[]]; reflexivity.
  - intros [<-|[]]; reflexivity.
Qed.

Lemma copy_effect fl S st p e r :
  file_listed S p e -> d_open st = None ->
  all_ok fl st (dest_cmds (copy_steps chunker S (p, (e, r)))) ->
  no_through (d_events (exec_all fl st (dest_cmds (copy_steps chunker S (p, (e, r)))))) ->
  fget (d_fs (exec_all fl st (dest_cmds (copy_steps chunker S (p, (e, r)))))) p = Some (planned_node fl S p e) /\
  d_open (exec_all fl st (dest_cmds (copy_steps chunker S (p, (e, r))))) = None.
Proof.
  intros Hl Ho Hok Hnt. destruct e as [mt sz| |k t]; cbn [copy_steps planned_node] in *.
  - destruct Hl as (m & d & ES). rewrite ES in *. cbn [dest_cmds flat_map app] in *.
    fold (dest_cmds (chunk_cmds p mt (chunker d))) in *. rewrite dest_cmds_chunk_cmds in *.
    destruct (chunker_ok d) as [Hne Hcat].
    destruct (chunks_effect fl p mt (chunker d) st Hne Hok Hnt (or_introl Ho)) as [F1 F2].
    rewrite Ho in F1. cbn [app] in F1. rewrite Hcat in F1. unfold file_data. rewrite ES. split; assumption.
  - cbn [dest_cmds flat_map app all_ok exec_all] in *. destruct Hok as [Hok _].
    destruct (nc_effect fl st (CCreateFolder p) eq_refl Hok Hnt) as (O & _ & E). rewrite O. split; [apply E; constructor|assumption].
  - cbn [dest_cmds flat_map app all_ok exec_all] in *. destruct Hok as [Hok _].
    destruct (nc_effect fl st (CCreateSymlink p k t) eq_refl Hok Hnt) as (O & _ & E). rewrite O. split; [apply E; constructor|assumption].
Qed.

Lemma copies_effect fl S : forall (cl : list (path * (entry * creason))) st,
  NoDup (map fst cl) ->
  (forall p e r, In (p, (e, r)) cl -> file_listed S p e) ->
  d_open st = None ->
  all_ok fl st (dest_cmds (flat_map (copy_steps chunker S) cl)) ->
  no_through (d_events (exec_all fl st (dest_cmds (flat_map (copy_steps chunker S) cl)))) ->
  (forall p e r, In (p, (e, r)) cl ->
     fget (d_fs (exec_all fl st (dest_cmds (flat_map (copy_steps chunker S) cl)))) p = Some (planned_node fl S p e)) /\
  (forall p, ~ In p (map fst cl) ->
     fget (d_fs (exec_all fl st (dest_cmds (flat_map (copy_steps chunker S) cl)))) p = fget (d_fs st) p) /\
  d_open (exec_all fl st (dest_cmds (flat_map (copy_steps chunker S) cl))) = None.
Proof.
  induction cl as [|[p0 [e0 r0]] cl IH]; intros st Hnd Hl Ho Hok Hnt.
  - cbn. repeat split; auto. intros p e r [].
  - cbn [flat_map] in *. rewrite dest_cmds_app in *. rewrite exec_all_app in *.
    apply all_ok_app in Hok as [Hok1 Hok2].
    inversion Hnd as [|? ? Hnin Hnd']; subst.
    set (cmds0 := dest_cmds (copy_steps chunker S (p0, (e0, r0)))) in *.
    set (st1 := exec_all fl st cmds0) in *.
    assert (Hnt1 : no_through (d_events st1)) by (eapply no_through_prefix; eauto).
    destruct (copy_effect fl S st p0 e0 r0 (Hl _ _ _ (or_introl eq_refl)) Ho Hok1 Hnt1) as [E1 O1].
    fold cmds0 in E1, O1. fold st1 in E1, O1.
    assert (Hl' : forall p e r, In (p, (e, r)) cl -> file_listed S p e) by (intros; eapply Hl; right; eauto).
    destruct (IH st1 Hnd' Hl' O1 Hok2 Hnt) as (I1 & I2 & I3).
    repeat split; auto.
    + intros p e r [Heq|Hin].
      * inversion Heq; subst. rewrite I2 by assumption. exact E1.
      * eapply I1; eauto.
    + intros p Hp. rewrite I2 by (intro; apply Hp; right; assumption).
      unfold st1. apply exec_all_frame. intros c Hc. rewrite (copy_cmds_paths S p0 e0 r0 c Hc).
      intro Heq. inversion Heq. apply Hp. left. assumption.
Qed.
End Copies.
