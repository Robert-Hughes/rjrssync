(* Remote session model, no-stuck (C09) for every reachable state in which the link is down in some way:
   the TCP connection is cut, or the boss has closed its end of the socket, or the doer's stdin is closed, or the
   doer process is gone.  No premise about capacities or the protocol. *)
From RJ Require Import Base.Prelude Model.RemoteSession Proofs.RemoteSessionBase Proofs.RemoteSessionFlow
  Proofs.RemoteSessionAInv Proofs.RemoteSessionBlocked Proofs.RemoteSessionComplete.

Local Open Scope nat_scope.

(* the doer process lives and its socket is broken (cut, or closed by the boss): some thread of the doer can move,
   as for the boss in no_stuck_doer_gone *)
Theorem doer_moves_when_broken c x s : reach c x s -> final s = false ->
  dalive (ev s) = true -> d_broken s = true -> exists s', step c s s'.
Proof.
  intros R Hf Hd Hb.
  destruct (reach_finv _ _ _ R) as [[_ _ _ Tx] [_ Rx _ _]]. pose proof (reach_doer_inv _ _ _ R) as DI.
  assert (SND : snd_ended (snd_t (de s)) = false -> (q (outc (de s)) <> [] \/ txa (outc (de s)) = false) ->
                exists s', step c s s').
  { intros H1 H2. destruct (broken_snd_moves c (de s) (d2b s) (bad_d2b (ev s)) H1 H2) as ([[e' wr] bad'] & E).
    eexists. exists ADSnd. unfold next. rewrite Hf, Hd, Hb, E. reflexivity. }
  assert (RCV : rcv_ended (rcv_t (de s)) = false -> (q (inc (de s)) = [] \/ rxa (inc (de s)) = false) ->
                exists s', step c s s').
  { intros H1 H2. destruct (broken_rcv_moves c (de s) (b2d s) H1 H2) as ([e' wr] & E).
    eexists. exists ADRcv. unfold next. rewrite Hf, Hd, Hb, E. reflexivity. }
  destruct (doer_step c s) as [s1|] eqn:B.
  { exists s1. exists ADoer. unfold next. rewrite Hf, Hd. exact B. }
  destruct (doer_none _ _ B) as [[r rest _ _ (X & _ & Q) | _ _ Q T | P Al | P Al | P _ _] NF].
  - apply SND; [|now left]. rewrite X in Rx. now destruct (snd_ended (snd_t (de s))).
  - apply RCV; [|now left]. rewrite T in Tx. now destruct (rcv_ended (rcv_t (de s))).
  - apply SND; [exact Al|]. right. rewrite (d_txa _ DI); rewrite P; reflexivity.
  - apply RCV; [exact Al|]. right. rewrite (d_rxa _ DI); rewrite P; reflexivity.
  - rewrite (NF P) in Hb. discriminate Hb.
Qed.

Definition link_down (s : st) : bool :=
  cut (ev s) || negb (bsock (ev s)) || negb (stdin_open (ev s)) || negb (dalive (ev s)).

Theorem no_stuck_link_down c x s : reach c x s -> link_down s = true ->
  final s = true \/ exists s', step c s s'.
Proof.
  intros R L. destruct (dalive (ev s)) eqn:Hd; [|now apply (no_stuck_doer_gone c x)].
  destruct (final s) eqn:Hf; [now left|right].
  unfold link_down in L. rewrite Hd in L. cbn [negb] in L. rewrite orb_false_r in L.
  destruct (stdin_open (ev s)) eqn:Hs.
  - cbn [negb] in L. rewrite orb_false_r in L. eapply doer_moves_when_broken; eauto.
  - eexists. exists AWatch. unfold next. rewrite Hf, Hd, Hs. reflexivity.
Qed.
