(* The incremental planner of boss_sync.rs:450-599 over the ordered map of ordered_map.rs (vec + map, lazy
   deletion, `update` fails on a missing key), parametric in the key type, the entry-details type and the
   two decision functions, with its characterisation: the iterated action lists are functions of the two
   listings alone, for every interleaving.  Instantiated in Model/Core.v. *)
From RJ Require Import Base.Prelude.

Section Plan.
Variable K : Type.
Variable K_eq_dec : forall a b : K, {a = b} + {a <> b}.
Variable Det : Type.               (* entry details *)
Variable needs_delete : Det -> Det -> bool.          (* src dest *)
Inductive creason := NotOnDest | DestNewer | DestOlder | SameTime.
Inductive dreason := NotOnSource | Incompatible.
Variable needs_copy : Det -> Det -> option creason.  (* src dest, only when not needs_delete *)

(* ordered_map.rs: a vector of keys and a map; remove only removes from the map *)
Definition amap V := list (K * V).
Fixpoint alookup {V} (k:K) (m:amap V) : option V :=
  match m with [] => None | (k',v)::r => if K_eq_dec k k' then Some v else alookup k r end.
Fixpoint aremove {V} (k:K) (m:amap V) : amap V :=
  match m with [] => [] | (k',v)::r => if K_eq_dec k k' then aremove k r else (k',v)::aremove k r end.
Definition ainsert {V} (k:K) (v:V) (m:amap V) : amap V := (k,v)::aremove k m.

Record omap V := { ovec : list K; omp : amap V }.
Arguments ovec {V}. Arguments omp {V}.
Definition oempty {V} : omap V := {| ovec := []; omp := [] |}.
Definition oadd {V} (k:K) (v:V) (o:omap V) := {| ovec := ovec o ++ [k]; omp := ainsert k v (omp o) |}.
Definition oremove {V} (k:K) (o:omap V) := {| ovec := ovec o; omp := aremove k (omp o) |}.
(* update: panics (None) if missing *)
Definition oupdate {V} (k:K) (v:V) (o:omap V) : option (omap V) :=
  match alookup k (omp o) with Some _ => Some {| ovec := ovec o; omp := ainsert k v (omp o) |} | None => None end.
Definition oiter {V} (o:omap V) : list (K*V) :=
  flat_map (fun k => match alookup k (omp o) with Some v => [(k,v)] | None => [] end) (ovec o).
Definition oreverse {V} (o:omap V) := {| ovec := rev (ovec o); omp := omp o |}.

Record pstate := { src_seen : amap Det; dest_seen : amap Det;
                   to_del : omap (Det*dreason); to_cp : omap (Det*creason) }.
Definition pinit := {| src_seen := []; dest_seen := []; to_del := oempty; to_cp := oempty |}.

(* boss_sync.rs:526-562 *)
Definition process_src (p:K) (s:Det) (st:pstate) : option pstate :=
  let st' :=
    match alookup p (dest_seen st) with
    | None => Some (to_del st, oadd p (s, NotOnDest) (to_cp st))
    | Some d =>
      if needs_delete s d then
        match oupdate p (d, Incompatible) (to_del st) with
        | Some td => Some (td, oadd p (s, NotOnDest) (to_cp st))
        | None => None end
      else
        let td := oremove p (to_del st) in
        match needs_copy s d with
        | Some r => Some (td, oadd p (s, r) (to_cp st))
        | None => Some (td, to_cp st) end
    end in
  match st' with
  | Some (td, tc) => Some {| src_seen := ainsert p s (src_seen st); dest_seen := dest_seen st; to_del := td; to_cp := tc |}
  | None => None end.

(* boss_sync.rs:564-599 *)
Definition process_dest (p:K) (d:Det) (st:pstate) : option pstate :=
  let st' :=
    match alookup p (src_seen st) with
    | None => Some (oadd p (d, NotOnSource) (to_del st), to_cp st)
    | Some s =>
      if needs_delete s d then Some (oadd p (d, Incompatible) (to_del st), to_cp st)
      else match needs_copy s d with
           | Some r => match oupdate p (s, r) (to_cp st) with Some tc => Some (to_del st, tc) | None => None end
           | None => Some (to_del st, oremove p (to_cp st)) end
    end in
  match st' with
  | Some (td, tc) => Some {| src_seen := src_seen st; dest_seen := ainsert p d (dest_seen st); to_del := td; to_cp := tc |}
  | None => None end.

Inductive arrival := FromSrc (p:K) (d:Det) | FromDest (p:K) (d:Det).
Definition step (st:option pstate) (a:arrival) : option pstate :=
  match st with None => None | Some st =>
    match a with FromSrc p d => process_src p d st | FromDest p d => process_dest p d st end end.
Definition plan (sg:list arrival) := fold_left step sg (Some pinit).

(* the specification: each decision as a function of the two listings only *)
Definition copy_decision (D:amap Det) (e:K*Det) : list (K*(Det*creason)) :=
  let (p,s) := e in
  match alookup p D with
  | None => [(p,(s,NotOnDest))]
  | Some d => if needs_delete s d then [(p,(s,NotOnDest))]
              else match needs_copy s d with Some r => [(p,(s,r))] | None => [] end end.
Definition delete_decision (S:amap Det) (e:K*Det) : list (K*(Det*dreason)) :=
  let (p,d) := e in
  match alookup p S with
  | None => [(p,(d,NotOnSource))]
  | Some s => if needs_delete s d then [(p,(d,Incompatible))] else [] end.

Definition srcs (sg:list arrival) : list (K*Det) := flat_map (fun a => match a with FromSrc p d => [(p,d)] | _ => [] end) sg.
Definition dests (sg:list arrival) : list (K*Det) := flat_map (fun a => match a with FromDest p d => [(p,d)] | _ => [] end) sg.

Lemma alookup_aremove_eq V k (m:amap V) : alookup k (aremove k m) = None.
Proof. induction m as [|[k' v] m IH]; simpl; auto. destruct (K_eq_dec k k'); simpl; auto.
  destruct (K_eq_dec k k'); congruence. Qed.
Lemma alookup_aremove_ne V k k' (m:amap V) : k <> k' -> alookup k (aremove k' m) = alookup k m.
Proof. intros Hne. induction m as [|[k'' v] m IH]; simpl; auto.
  destruct (K_eq_dec k' k''); simpl.
  - subst. destruct (K_eq_dec k k''); congruence.
  - destruct (K_eq_dec k k''); auto. Qed.
Lemma alookup_ainsert_eq V k v (m:amap V) : alookup k (ainsert k v m) = Some v.
Proof. unfold ainsert; simpl. destruct (K_eq_dec k k); congruence. Qed.
Lemma alookup_ainsert_ne V k k' v (m:amap V) : k <> k' -> alookup k (ainsert k' v m) = alookup k m.
Proof. intros; unfold ainsert; simpl. destruct (K_eq_dec k k'); try congruence. apply alookup_aremove_ne; auto. Qed.

(* alist built from a listing: last wins; with NoDup keys it is just lookup in the list *)
Definition of_list (l:list (K*Det)) : amap Det := fold_left (fun m e => ainsert (fst e) (snd e) m) l [].


Fixpoint assoc (k:K) (l:list (K*Det)) : option Det :=
  match l with [] => None | (k',v)::r => if K_eq_dec k k' then Some v else assoc k r end.
Definition keys (l:list (K*Det)) := map fst l.

Inductive subseq : list K -> list K -> Prop :=
| ss_nil : subseq [] []
| ss_skip x l1 l2 : subseq l1 l2 -> subseq l1 (x::l2)
| ss_take x l1 l2 : subseq l1 l2 -> subseq (x::l1) (x::l2).
Lemma subseq_app_r l1 l2 x : subseq l1 l2 -> subseq l1 (l2 ++ [x]).
Proof. induction 1; simpl. - apply ss_skip, ss_nil. - apply ss_skip; auto. - apply ss_take; auto. Qed.
Lemma subseq_app_both l1 l2 x : subseq l1 l2 -> subseq (l1 ++ [x]) (l2 ++ [x]).
Proof. induction 1; simpl. - apply ss_take, ss_nil. - apply ss_skip; auto. - apply ss_take; auto. Qed.
Lemma subseq_in l1 l2 x : subseq l1 l2 -> In x l1 -> In x l2.
Proof. induction 1; simpl; intuition. Qed.

Lemma flat_map_subseq {B} (f:K -> list B) l1 l2 :
  subseq l1 l2 -> (forall k, In k l2 -> ~ In k l1 -> f k = []) -> NoDup l2 ->
  flat_map f l1 = flat_map f l2.
Proof.
  induction 1 as [|x l1 l2 Hs IH|x l1 l2 Hs IH]; intros Hf Hnd; simpl; auto.
  - inversion Hnd; subst. rewrite (Hf x); simpl; auto.
    + apply IH; auto. intros k Hk Hn. apply Hf; simpl; auto.
    + intro Hin. apply (subseq_in _ _ _ Hs) in Hin. contradiction.
  - inversion Hnd; subst. f_equal. apply IH; auto.
    intros k Hk Hn. apply Hf; simpl; auto. intros [->|Hin]; [contradiction|auto].
Qed.

Lemma assoc_snoc k l p d : assoc k (l ++ [(p,d)]) = if K_eq_dec k p then (match assoc k l with Some v => Some v | None => Some d end) else assoc k l.
Proof. induction l as [|[k' v] l IH]; simpl.
  - destruct (K_eq_dec k p); auto.
  - destruct (K_eq_dec k k'); subst.
    + destruct (K_eq_dec k' p); auto.
    + apply IH. Qed.
Lemma assoc_none_notin k l : ~ In k (keys l) -> assoc k l = None.
Proof. induction l as [|[k' v] l IH]; simpl; auto. intros Hn. destruct (K_eq_dec k k'); subst; [exfalso; auto| apply IH; auto]. Qed.

(* value of to_cp's map at k, as a function of what has been seen *)
Definition cp_val (As Ad:list (K*Det)) (k:K) : option (Det*creason) :=
  match assoc k As with None => None | Some s =>
    match copy_decision Ad (k,s) with (_,v)::_ => Some v | [] => None end end.
Definition del_val (As Ad:list (K*Det)) (k:K) : option (Det*dreason) :=
  match assoc k Ad with None => None | Some d =>
    match delete_decision As (k,d) with (_,v)::_ => Some v | [] => None end end.

Record Inv (As Ad:list (K*Det)) (st:pstate) : Prop := {
  i_src : forall k, alookup k (src_seen st) = assoc k As;
  i_dst : forall k, alookup k (dest_seen st) = assoc k Ad;
  i_cp  : forall k, alookup k (omp (to_cp st)) = cp_val As (dest_seen st) k;
  i_del : forall k, alookup k (omp (to_del st)) = del_val (src_seen st) Ad k;
  i_cpv : subseq (ovec (to_cp st)) (keys As);
  i_delv : subseq (ovec (to_del st)) (keys Ad);
  i_cpc : forall k, alookup k (omp (to_cp st)) <> None -> In k (ovec (to_cp st));
  i_delc : forall k, alookup k (omp (to_del st)) <> None -> In k (ovec (to_del st)) }.

Lemma keys_app l p d : keys (l ++ [(p,d)]) = keys l ++ [p].
Proof. unfold keys. rewrite map_app. reflexivity. Qed.

Ltac sim := cbn [omp ovec oadd oremove to_cp to_del src_seen dest_seen] in *.
Ltac dk k p := destruct (K_eq_dec k p) as [->|?].

(* An ordered map follows a value function over the keys listed so far: its map holds the values, its
   vector is a subsequence of the listing that covers every key with a value. *)
Definition tracks {V} (o : omap V) (val : K -> option V) (L : list K) : Prop :=
  (forall k, alookup k (omp o) = val k) /\ subseq (ovec o) L /\ (forall k, alookup k (omp o) <> None -> In k (ovec o)).

Lemma Inv_tracks As Ad st : Inv As Ad st ->
  (forall k, alookup k (src_seen st) = assoc k As) /\ (forall k, alookup k (dest_seen st) = assoc k Ad) /\
  tracks (to_cp st) (cp_val As (dest_seen st)) (keys As) /\ tracks (to_del st) (del_val (src_seen st) Ad) (keys Ad).
Proof. intros []. repeat split; assumption. Qed.
Lemma tracks_Inv As Ad st :
  (forall k, alookup k (src_seen st) = assoc k As) -> (forall k, alookup k (dest_seen st) = assoc k Ad) ->
  tracks (to_cp st) (cp_val As (dest_seen st)) (keys As) -> tracks (to_del st) (del_val (src_seen st) Ad) (keys Ad) ->
  Inv As Ad st.
Proof. intros ? ? (? & ? & ?) (? & ? & ?). constructor; assumption. Qed.

Section Tracks.
Context {V : Type} (o : omap V) (val val' : K -> option V) (L : list K) (p : K).
Hypothesis Ho : tracks o val L.

Lemma tracks_keep : (forall k, val' k = val k) -> tracks o val' L.
Proof. destruct Ho as (H1 & H2 & H3). intros E. repeat split; auto. intro k. rewrite E. apply H1. Qed.

Lemma tracks_skip : tracks o val (L ++ [p]).
Proof. destruct Ho as (H1 & H2 & H3). repeat split; auto. apply subseq_app_r, H2. Qed.

Hypothesis Hne : forall k, k <> p -> val' k = val k.

Lemma tracks_same : val' p = val p -> tracks o val' L.
Proof. intros Hp. apply tracks_keep. intro k. dk k p; auto. Qed.

Lemma tracks_add v : val' p = Some v -> tracks (oadd p v o) val' (L ++ [p]).
Proof.
  destruct Ho as (H1 & H2 & H3). intros Hp. repeat split; sim.
  - intro k. dk k p; [rewrite alookup_ainsert_eq; auto|]. rewrite alookup_ainsert_ne, Hne by auto. apply H1.
  - apply subseq_app_both, H2.
  - intros k Hk. apply in_or_app. dk k p; [right; left; reflexivity|left]. apply H3. rewrite alookup_ainsert_ne in Hk; auto.
Qed.

Lemma tracks_remove : val' p = None -> tracks (oremove p o) val' L.
Proof.
  destruct Ho as (H1 & H2 & H3). intros Hp. repeat split; sim; auto.
  - intro k. dk k p; [rewrite alookup_aremove_eq; auto|]. rewrite alookup_aremove_ne, Hne by auto. apply H1.
  - intros k Hk. dk k p; [rewrite alookup_aremove_eq in Hk; congruence|]. apply H3. rewrite alookup_aremove_ne in Hk; auto.
Qed.

Lemma tracks_update v : val p <> None -> val' p = Some v -> exists o', oupdate p v o = Some o' /\ tracks o' val' L.
Proof.
  destruct Ho as (H1 & H2 & H3). intros Hold Hp. unfold oupdate.
  destruct (alookup p (omp o)) eqn:E; [|rewrite H1 in E; contradiction]. eexists; split; [reflexivity|]. repeat split; sim; auto.
  - intro k. dk k p; [rewrite alookup_ainsert_eq; auto|]. rewrite alookup_ainsert_ne, Hne by auto. apply H1.
  - intros k Hk. apply H3. dk k p; [congruence|]. rewrite alookup_ainsert_ne in Hk; auto.
Qed.
End Tracks.

Lemma inv_src As Ad st p s : Inv As Ad st -> ~ In p (keys As) ->
  exists st', process_src p s st = Some st' /\ Inv (As ++ [(p,s)]) Ad st'.
Proof.
  intros HI Hnin. apply Inv_tracks in HI as (Hs & Hd & Hcp & Hdel).
  assert (HpAs : assoc p As = None) by (apply assoc_none_notin; auto).
  assert (Hsrc' : forall k, alookup k (ainsert p s (src_seen st)) = assoc k (As ++ [(p,s)])).
  { intro k. rewrite assoc_snoc. dk k p.
    - rewrite alookup_ainsert_eq, HpAs. reflexivity.
    - rewrite alookup_ainsert_ne by auto. apply Hs. }
  (* the values at the other keys do not move; at p they are the two decisions *)
  assert (Hcp_ne : forall k, k <> p -> cp_val (As ++ [(p,s)]) (dest_seen st) k = cp_val As (dest_seen st) k).
  { intros k Hne. unfold cp_val. rewrite assoc_snoc. dk k p; [congruence|reflexivity]. }
  assert (Hdel_ne : forall k, k <> p -> del_val (ainsert p s (src_seen st)) Ad k = del_val (src_seen st) Ad k).
  { intros k Hne. unfold del_val, delete_decision. destruct (assoc k Ad); auto. rewrite alookup_ainsert_ne by auto. reflexivity. }
  assert (Hcp_p : cp_val (As ++ [(p,s)]) (dest_seen st) p = match copy_decision (dest_seen st) (p,s) with (_,v)::_ => Some v | [] => None end).
  { unfold cp_val. rewrite assoc_snoc, HpAs. destruct (K_eq_dec p p); [reflexivity|congruence]. }
  assert (Hcp_old : cp_val As (dest_seen st) p = None) by (unfold cp_val; rewrite HpAs; reflexivity).
  assert (Hdel_p : del_val (ainsert p s (src_seen st)) Ad p =
            match alookup p (dest_seen st) with Some d => if needs_delete s d then Some (d, Incompatible) else None | None => None end).
  { unfold del_val, delete_decision. rewrite <- Hd. destruct (alookup p (dest_seen st)) as [d|]; [|reflexivity].
    rewrite alookup_ainsert_eq. destruct (needs_delete s d); reflexivity. }
  assert (Hdel_old : del_val (src_seen st) Ad p = match alookup p (dest_seen st) with Some d => Some (d, NotOnSource) | None => None end).
  { unfold del_val, delete_decision. rewrite <- Hd, Hs, HpAs. reflexivity. }
  unfold copy_decision in Hcp_p. unfold process_src.
  destruct (alookup p (dest_seen st)) as [d|] eqn:HpD; [destruct (needs_delete s d) eqn:Hnd|].
  - (* incompatible: update reason, add copy *)
    destruct (tracks_update _ _ _ _ p Hdel Hdel_ne (d, Incompatible)) as (td & -> & Htd); [rewrite Hdel_old; discriminate|exact Hdel_p|].
    eexists; split; [reflexivity|]. apply tracks_Inv; sim; [exact Hsrc'|exact Hd| |exact Htd].
    rewrite keys_app. eapply tracks_add; eassumption.
  - (* compatible: un-delete, maybe copy *)
    pose proof (tracks_remove _ _ _ _ p Hdel Hdel_ne Hdel_p) as Htd.
    destruct (needs_copy s d) as [r|] eqn:Hnc; (eexists; split; [reflexivity|]);
      (apply tracks_Inv; sim; [exact Hsrc'|exact Hd| |exact Htd]); rewrite keys_app.
    + eapply tracks_add; eassumption.
    + apply tracks_skip, (tracks_same _ _ _ _ p Hcp Hcp_ne). congruence.
  - (* dest not seen yet *)
    eexists; split; [reflexivity|]. apply tracks_Inv; sim; [exact Hsrc'|exact Hd| |].
    + rewrite keys_app. eapply tracks_add; eassumption.
    + apply (tracks_same _ _ _ _ p Hdel Hdel_ne). congruence.
Qed.

Lemma inv_dest As Ad st p d : Inv As Ad st -> ~ In p (keys Ad) ->
  exists st', process_dest p d st = Some st' /\ Inv As (Ad ++ [(p,d)]) st'.
Proof.
  intros HI Hnin. apply Inv_tracks in HI as (Hs & Hd & Hcp & Hdel).
  assert (HpAd : assoc p Ad = None) by (apply assoc_none_notin; auto).
  assert (Hdst' : forall k, alookup k (ainsert p d (dest_seen st)) = assoc k (Ad ++ [(p,d)])).
  { intro k. rewrite assoc_snoc. dk k p.
    - rewrite alookup_ainsert_eq, HpAd. reflexivity.
    - rewrite alookup_ainsert_ne by auto. apply Hd. }
  assert (Hcp_ne : forall k, k <> p -> cp_val As (ainsert p d (dest_seen st)) k = cp_val As (dest_seen st) k).
  { intros k Hne. unfold cp_val, copy_decision. destruct (assoc k As); auto. rewrite alookup_ainsert_ne by auto. reflexivity. }
  assert (Hdel_ne : forall k, k <> p -> del_val (src_seen st) (Ad ++ [(p,d)]) k = del_val (src_seen st) Ad k).
  { intros k Hne. unfold del_val. rewrite assoc_snoc. dk k p; [congruence|reflexivity]. }
  assert (Hdel_p : del_val (src_seen st) (Ad ++ [(p,d)]) p = match delete_decision (src_seen st) (p,d) with (_,v)::_ => Some v | [] => None end).
  { unfold del_val. rewrite assoc_snoc, HpAd. destruct (K_eq_dec p p); [reflexivity|congruence]. }
  assert (Hdel_old : del_val (src_seen st) Ad p = None) by (unfold del_val; rewrite HpAd; reflexivity).
  assert (Hcp_p : cp_val As (ainsert p d (dest_seen st)) p =
            match alookup p (src_seen st) with
            | Some s => if needs_delete s d then Some (s, NotOnDest) else match needs_copy s d with Some r => Some (s, r) | None => None end
            | None => None end).
  { unfold cp_val, copy_decision. rewrite <- Hs. destruct (alookup p (src_seen st)) as [s|]; [|reflexivity].
    rewrite alookup_ainsert_eq. destruct (needs_delete s d); [reflexivity|]. destruct (needs_copy s d); reflexivity. }
  assert (Hcp_old : cp_val As (dest_seen st) p = match alookup p (src_seen st) with Some s => Some (s, NotOnDest) | None => None end).
  { unfold cp_val, copy_decision. rewrite <- Hs, Hd, HpAd. reflexivity. }
  unfold delete_decision in Hdel_p. unfold process_dest.
  destruct (alookup p (src_seen st)) as [s|] eqn:HpS; [destruct (needs_delete s d) eqn:Hnd|].
  - eexists; split; [reflexivity|]. apply tracks_Inv; sim; [exact Hs|exact Hdst'| |].
    + apply (tracks_same _ _ _ _ p Hcp Hcp_ne). congruence.
    + rewrite keys_app. eapply tracks_add; eassumption.
  - assert (Htd : tracks (to_del st) (del_val (src_seen st) (Ad ++ [(p,d)])) (keys (Ad ++ [(p,d)]))).
    { rewrite keys_app. apply tracks_skip. apply (tracks_same _ _ _ _ p Hdel Hdel_ne). congruence. }
    destruct (needs_copy s d) as [r|] eqn:Hnc.
    + destruct (tracks_update _ _ _ _ p Hcp Hcp_ne (s, r)) as (tc & -> & Htc); [rewrite Hcp_old; discriminate|exact Hcp_p|].
      eexists; split; [reflexivity|]. apply tracks_Inv; sim; [exact Hs|exact Hdst'|exact Htc|exact Htd].
    + eexists; split; [reflexivity|]. apply tracks_Inv; sim; [exact Hs|exact Hdst'| |exact Htd].
      eapply tracks_remove; eassumption.
  - eexists; split; [reflexivity|]. apply tracks_Inv; sim; [exact Hs|exact Hdst'| |].
    + apply (tracks_same _ _ _ _ p Hcp Hcp_ne). congruence.
    + rewrite keys_app. eapply tracks_add; eassumption.
Qed.

Lemma inv_init : Inv [] [] pinit.
Proof. constructor; simpl; auto; try constructor; intros; congruence. Qed.

Lemma srcs_app sg a : srcs (sg ++ [a]) = srcs sg ++ match a with FromSrc p d => [(p,d)] | _ => [] end.
Proof. unfold srcs. rewrite flat_map_app. simpl. rewrite app_nil_r. reflexivity. Qed.
Lemma dests_app sg a : dests (sg ++ [a]) = dests sg ++ match a with FromDest p d => [(p,d)] | _ => [] end.
Proof. unfold dests. rewrite flat_map_app. simpl. rewrite app_nil_r. reflexivity. Qed.

Lemma NoDup_app_last (l:list K) x : NoDup (l ++ [x]) -> NoDup l /\ ~ In x l.
Proof. intros H. apply NoDup_remove in H. rewrite app_nil_r in H. exact H. Qed.

Theorem plan_inv sg : NoDup (keys (srcs sg)) -> NoDup (keys (dests sg)) ->
  exists st, plan sg = Some st /\ Inv (srcs sg) (dests sg) st.
Proof.
  induction sg as [|a sg IH] using rev_ind; intros Hns Hnd.
  - exists pinit. split; [reflexivity|apply inv_init].
  - rewrite srcs_app in Hns. rewrite dests_app in Hnd. unfold plan. rewrite fold_left_app. simpl.
    destruct a as [p d|p d].
    + rewrite keys_app in Hns. apply NoDup_app_last in Hns as [Hns Hnin]. rewrite app_nil_r in Hnd.
      destruct (IH Hns Hnd) as (st & Hp & HI). unfold plan in Hp. rewrite Hp. simpl.
      destruct (inv_src _ _ _ p d HI Hnin) as (st' & Hs' & HI'). exists st'. split; auto.
      rewrite srcs_app, dests_app, app_nil_r. exact HI'.
    + rewrite keys_app in Hnd. apply NoDup_app_last in Hnd as [Hnd Hnin]. rewrite app_nil_r in Hns.
      destruct (IH Hns Hnd) as (st & Hp & HI). unfold plan in Hp. rewrite Hp. simpl.
      destruct (inv_dest _ _ _ p d HI Hnin) as (st' & Hs' & HI'). exists st'. split; auto.
      rewrite srcs_app, dests_app, app_nil_r. exact HI'.
Qed.

Lemma oiter_char {V} (o:omap V) (L:list K) : subseq (ovec o) L -> NoDup L ->
  (forall k, alookup k (omp o) <> None -> In k (ovec o)) ->
  oiter o = flat_map (fun k => match alookup k (omp o) with Some v => [(k,v)] | None => [] end) L.
Proof.
  intros Hs Hnd Hc. unfold oiter. apply flat_map_subseq; auto.
  intros k _ Hn. destruct (alookup k (omp o)) eqn:E; auto. exfalso. apply Hn, Hc. congruence.
Qed.

Lemma flat_map_ext_in' {A B} (f g:A -> list B) l : (forall a, In a l -> f a = g a) -> flat_map f l = flat_map g l.
Proof. induction l; simpl; auto. intros H. rewrite H, IHl; auto. Qed.
Lemma rev_flat_map_short {A B} (f:A -> list B) l : (forall a, length (f a) <= 1) -> rev (flat_map f l) = flat_map f (rev l).
Proof. intros Hf. induction l as [|a l IH]; simpl; auto. rewrite rev_app_distr, IH, flat_map_app. simpl. rewrite app_nil_r. f_equal.
  specialize (Hf a). destruct (f a) as [|x [|y t]]; simpl in *; auto. lia. Qed.

Lemma flat_map_keys {B} (f:K -> Det -> list B) (l:list (K*Det)) : NoDup (keys l) ->
  flat_map (fun k => match assoc k l with Some v => f k v | None => [] end) (keys l) = flat_map (fun e => f (fst e) (snd e)) l.
Proof.
  induction l as [|[k v] l IH]; simpl; auto. intros Hnd. inversion Hnd; subst.
  destruct (K_eq_dec k k); [|congruence]. f_equal. rewrite <- IH by auto.
  apply flat_map_ext_in'. intros a Ha. destruct (K_eq_dec a k); [subst; contradiction|reflexivity].
Qed.

Theorem plan_deterministic sg st : NoDup (keys (srcs sg)) -> NoDup (keys (dests sg)) -> plan sg = Some st ->
  oiter (to_cp st)  = flat_map (copy_decision (dest_seen st)) (srcs sg) /\
  oiter (oreverse (to_del st)) = rev (flat_map (delete_decision (src_seen st)) (dests sg)).
Proof.
  intros Hns Hnd Hp. destruct (plan_inv sg Hns Hnd) as (st0 & Hp0 & HI). rewrite Hp in Hp0. injection Hp0 as <-.
  destruct HI as [Hs Hd Hcp Hdel Hcv Hdv Hcc Hdc]. split.
  - rewrite (oiter_char _ _ Hcv Hns Hcc).
    transitivity (flat_map (fun e => copy_decision (dest_seen st) (fst e, snd e)) (srcs sg));
      [|apply flat_map_ext; intros [k s]; reflexivity].
    rewrite <- (flat_map_keys (fun k s => copy_decision (dest_seen st) (k,s))) by auto.
    apply flat_map_ext. intro k. rewrite Hcp. unfold cp_val. destruct (assoc k (srcs sg)) as [s|]; auto.
    unfold copy_decision. destruct (alookup k (dest_seen st)); auto. destruct (needs_delete s d); auto. destruct (needs_copy s d); auto.
  - assert (E : oiter (oreverse (to_del st)) = rev (oiter (to_del st))).
    { unfold oiter, oreverse; simpl. symmetry. apply rev_flat_map_short. intro k. destruct (alookup k (omp (to_del st))); simpl; lia. }
    rewrite E. f_equal. rewrite (oiter_char _ _ Hdv Hnd Hdc).
    transitivity (flat_map (fun e => delete_decision (src_seen st) (fst e, snd e)) (dests sg));
      [|apply flat_map_ext; intros [k d]; reflexivity].
    rewrite <- (flat_map_keys (fun k d => delete_decision (src_seen st) (k,d))) by auto.
    apply flat_map_ext. intro k. rewrite Hdel. unfold del_val. destruct (assoc k (dests sg)) as [d|]; auto.
    unfold delete_decision. destruct (alookup k (src_seen st)); auto. destruct (needs_delete d0 d); auto.
Qed.

Lemma assoc_alookup k (l:list (K*Det)) : assoc k l = alookup k l.
Proof. induction l as [|[k' v] l IH]; simpl; auto. destruct (K_eq_dec k k'); auto. Qed.
Lemma copy_decision_ext D D' e : (forall k, alookup k D = alookup k D') -> copy_decision D e = copy_decision D' e.
Proof. intros H. destruct e as [p s]. unfold copy_decision. rewrite H. reflexivity. Qed.
Lemma delete_decision_ext S S' e : (forall k, alookup k S = alookup k S') -> delete_decision S e = delete_decision S' e.
Proof. intros H. destruct e as [p d]. unfold delete_decision. rewrite H. reflexivity. Qed.

Theorem plan_char sg : NoDup (keys (srcs sg)) -> NoDup (keys (dests sg)) ->
  exists st, plan sg = Some st /\
    oiter (to_cp st) = flat_map (copy_decision (dests sg)) (srcs sg) /\
    oiter (oreverse (to_del st)) = rev (flat_map (delete_decision (srcs sg)) (dests sg)).
Proof.
  intros Hns Hnd. destruct (plan_inv sg Hns Hnd) as (st & Hp & HI). exists st. split; [exact Hp|].
  destruct (plan_deterministic sg st Hns Hnd Hp) as [H1 H2]. destruct HI as [Hs Hd _ _ _ _ _ _].
  split.
  - rewrite H1. apply flat_map_ext. intro e. apply copy_decision_ext. intro k. rewrite Hd. apply assoc_alookup.
  - rewrite H2. f_equal. apply flat_map_ext. intro e. apply delete_decision_ext. intro k. rewrite Hs. apply assoc_alookup.
Qed.
End Plan.
